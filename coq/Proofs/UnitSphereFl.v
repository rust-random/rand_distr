(* Proofs/UnitSphereFl.v — property C12 at the IEEE level for the transform of UnitSphere::sample (unit_sphere.rs:52-63), which has
   no libm call (sqrt is a correctly rounded IEEE operation):
       sum = x1*x1 + x2*x2;  if sum >= 1 { continue }
       factor = 2 * sqrt(1 - sum);   return [x1 * factor, x2 * factor, 1 - 2 * sum]
   For finite x1, x2 in [-1, 1] whose float sum is not rejected: no operation overflows, the square root is taken of a number in
   [0, 1], all three components are finite floats (never NaN), the third lies in [-1, 1] exactly and the first two in [-2, 2].     *)
From Coq Require Import Reals Lra Lia.
From Flocq Require Import Core.Core IEEE754.BinarySingleNaN.
From RD Require Import Proofs.FlConst Proofs.AffineFl Proofs.TriangularFl Proofs.UnitNormFl.
Open Scope R_scope.

Section Fmt.
Variable prec emax : Z.
Context (Hp : Prec_gt_0 prec) (Hpe : Prec_lt_emax prec emax).
Hypothesis Hpe2 : (prec + 3 <= emax)%Z.
Hypothesis Hp3 : (3 <= prec)%Z.
Notation float := (binary_float prec emax).
Notation bf := (bf prec emax).
Notation Btwo := (Btwo prec emax Hp Hpe).
Notation disc_sum_fl := (disc_sum_fl prec emax Hp Hpe).

Definition sphere_reject_fl (sum : float) : bool := Bleb Bone sum.
Definition sphere_factor_fl (sum : float) : float := Bmult mode_NE Btwo (Bsqrt mode_NE (Bminus mode_NE Bone sum)).
Definition sphere_xy_fl (x factor : float) : float := Bmult mode_NE x factor.
Definition sphere_z_fl (sum : float) : float := Bminus mode_NE Bone (Bmult mode_NE Btwo sum).

Lemma bf_two : bf 1 Btwo.
Proof. destruct (Btwo_correct prec emax Hp Hpe) as [V F]. split; [exact F|rewrite V; simpl; lra]. Qed.

Section Sample.
Variables x1 x2 : float.
Hypotheses (F1 : is_finite x1 = true) (F2 : is_finite x2 = true) (H1 : Rabs (B2R x1) <= 1) (H2 : Rabs (B2R x2) <= 1).
Hypothesis Hacc : sphere_reject_fl (disc_sum_fl x1 x2) = false.

Lemma sum_bf : bf 0 (disc_sum_fl x1 x2) /\ B2R (disc_sum_fl x1 x2) < 1.
Proof.
  destruct (disc_sum_fl_value prec emax Hp Hpe Hpe2 Hp3 x1 x2 F1 F2 H1 H2) as (V & G & S0 & _). rewrite <- V in S0.
  unfold sphere_reject_fl in Hacc. rewrite (Bleb_correct prec emax _ _ (is_finite_Bone prec emax Hp Hpe) G) in Hacc.
  rewrite (Bone_correct prec emax Hp Hpe) in Hacc.
  destruct (Rle_bool_spec 1 (B2R (disc_sum_fl x1 x2))) as [L|L]; [discriminate|].
  split; [|exact L]. split; [exact G|]. simpl. lra.
Qed.

Theorem sphere_fl_finite :
  let s := disc_sum_fl x1 x2 in
  let f := sphere_factor_fl s in
  is_finite (sphere_xy_fl x1 f) = true /\ is_finite (sphere_xy_fl x2 f) = true /\ is_finite (sphere_z_fl s) = true /\
  Rabs (B2R (sphere_xy_fl x1 f)) <= 2 /\ Rabs (B2R (sphere_xy_fl x2 f)) <= 2 /\ Rabs (B2R (sphere_z_fl s)) <= 1 /\
  0 <= B2R f <= 2.
Proof.
  intros s f. destruct sum_bf as [Ds Ls]. fold s in Ds, Ls.
  pose proof (emax_gt_1 prec emax Hp Hpe) as E1. assert (0 < emax)%Z as E0 by lia.
  assert (0 <= 0)%Z as Z0 by lia. assert (0 <= 1)%Z as Z1 by lia.
  (* 1 - sum in [0,1], its square root too, the factor in [0,2] *)
  pose proof (sqrt_bf prec emax Hp Hpe _ 0 Z0 (one_minus_bf prec emax Hp Hpe s Ds)) as Dq.
  assert (bf 1 f) as [Ff Hf] by exact (mult_bf prec emax Hp Hpe Btwo _ 1 0 Z1 Z0 E1 bf_two Dq).
  simpl (bpow radix2 1) in Hf.
  assert (forall x : float, is_finite x = true -> Rabs (B2R x) <= 1 ->
          is_finite (sphere_xy_fl x f) = true /\ Rabs (B2R (sphere_xy_fl x f)) <= 2) as XY.
  { intros x Fx Hx.
    apply (abs_intro prec emax Hp Hpe _ (B2R x * B2R f) 1 Z1 E1); [|exact (Bmult_value prec emax Hp Hpe x f Fx Ff)].
    rewrite Rabs_mult, (Rabs_pos_eq (B2R f)) by lra. pose proof (Rabs_pos (B2R x)). simpl. nra. }
  destruct (mult_bf prec emax Hp Hpe Btwo s 1 0 Z1 Z0 E1 bf_two Ds) as [F2s H2s]. simpl (bpow radix2 (1 + 0)) in H2s.
  assert (is_finite (sphere_z_fl s) = true /\ Rabs (B2R (sphere_z_fl s)) <= 1) as [Fz Bz].
  { apply (abs_intro prec emax Hp Hpe _ (B2R Bone - B2R (Bmult mode_NE Btwo s)) 0 Z0 E0);
      [|exact (Bminus_value prec emax Hp Hpe Bone _ (is_finite_Bone prec emax Hp Hpe) F2s)].
    rewrite (Bone_correct prec emax Hp Hpe). simpl. apply Rabs_le. lra. }
  destruct (XY x1 F1 H1) as [A1 B1]. destruct (XY x2 F2 H2) as [A2 B2].
  repeat split; try assumption; lra.
Qed.
End Sample.
End Fmt.
