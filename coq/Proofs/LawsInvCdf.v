(* Proofs/LawsInvCdf.v — the single-draw inverse-CDF samplers of Model/Continuous.v
   (cauchy, pareto, weibull, gumbel, frechet, triangular):
     <D>_run    the model reads exactly one word and returns one explicit expression
     <D>_value  the exact real value of that expression is the quantile transform Q_D applied to
                the uniform value the word denotes
     <D>_event  Q_D theta u <= x  <->  u <= F_D theta x   (or 1 - F_D theta x <= u when Q_D is
                decreasing in u): with P(U <= p) = p this says the sample has CDF F_D.
   This file: vocabulary, uniform draws, all six *_run, and value/law of weibull, pareto, gumbel,
   frechet, cauchy.  Proofs/LawsTriangular.v: value/law of triangular.                             *)
From Coq Require Import Reals ZArith List Lra Lia.
From Coquelicot Require Rcomplements.
From Interval Require Import Xreal.
From RD Require Import Base.Expr Base.Run Model.Sampler Model.Continuous Proofs.RejectTools.
Import ListNotations.
Open Scope R_scope.

Module ExprNotations.
Notation "a +. b" := (Bin Add a b) (at level 50, left associativity).
Notation "a -. b" := (Bin Sub a b) (at level 50, left associativity).
Notation "a *. b" := (Bin Mul a b) (at level 40, left associativity).
Notation "a /. b" := (Bin Div a b) (at level 40, left associativity).
End ExprNotations.

(* real value of a dyadic parameter (m, e) = m * 2^e *)
Definition dyR (q : Z * Z) : R := IZR (fst q) * powerRZ 2 (snd q).

(* the real number a 64-bit word denotes as a uniform draw:
   StandardUniform: [0,1), top 53 (f64) / top 24 of the high 32 (f32) bits;  OpenClosed01: the same + 1 ulp *)
Definition uR_std (t : fty) (w : Z) : R :=
  match t with
  | F64 => IZR (w / 2 ^ 11) / 2 ^ 53
  | F32 => IZR (hi32 w / 2 ^ 8) / 2 ^ 24
  end.
Definition uR_oc (t : fty) (w : Z) : R :=
  match t with
  | F64 => (IZR (w / 2 ^ 11) + 1) / 2 ^ 53
  | F32 => (IZR (hi32 w / 2 ^ 8) + 1) / 2 ^ 24
  end.

Definition word (w : Z) : Prop := (0 <= w < 2 ^ 64)%Z.

Lemma dyx_eval q : evalX (dyx q) = Xreal (dyR q).
Proof. unfold dyx, dyR. cbn [evalX]. apply xdy_real. Qed.

Lemma num_eval n : evalX (num n) = Xreal (IZR n).
Proof. unfold num. cbn [evalX]. rewrite xdy_real. f_equal. simpl. ring. Qed.

Lemma one_eval : evalX one = Xreal 1.
Proof. apply num_eval. Qed.

Lemma Xneg_real x : Xneg (Xreal x) = Xreal (- x).
Proof. reflexivity. Qed.

Lemma Xln_pos x : 0 < x -> Xln (Xreal x) = Xreal (ln x).
Proof. intros H. cbn. unfold Xln'. now rewrite is_positive_true. Qed.

Lemma Xln_nonpos x : x <= 0 -> Xln (Xreal x) = Xnan.
Proof. intros H. cbn. unfold Xln'. now rewrite is_positive_false. Qed.

Lemma Xdiv_nz x y : y <> 0 -> Xdiv (Xreal x) (Xreal y) = Xreal (x / y).
Proof. intros H. cbn. unfold Xdiv'. now rewrite is_zero_false. Qed.

Lemma Xpow_pos x y : 0 < x -> Xpow (Xreal x) (Xreal y) = Xreal (Rpower x y).
Proof. intros H. unfold Xpow. rewrite Xln_pos by assumption. reflexivity. Qed.

Lemma Xpow_nonpos x y : x <= 0 -> Xpow (Xreal x) y = Xnan.
Proof. intros H. unfold Xpow. rewrite Xln_nonpos by assumption. destruct y; reflexivity. Qed.

Lemma Xtan_ok x : cos x <> 0 -> Xtan (Xreal x) = Xreal (tan x).
Proof. intros H. cbn. unfold Xtan'. now rewrite is_zero_false. Qed.

(* the comparison a tree branches on, as a proposition *)
Lemma rcmp_true c x y : rcmp c x y = true <->
  match c with CLt => x < y | CLe => x <= y | CGt => y < x | CGe => y <= x end.
Proof.
  destruct c; cbn; [destruct (Rlt_dec x y)|destruct (Rle_dec x y)|destruct (Rlt_dec y x)|destruct (Rle_dec y x)];
    split; intros H; try reflexivity; try assumption; try discriminate; contradiction.
Qed.

Lemma p2_53 : powerRZ 2 (-53) = / 2 ^ 53. Proof. reflexivity. Qed.
Lemma p2_24 : powerRZ 2 (-24) = / 2 ^ 24. Proof. reflexivity. Qed.

Lemma u_std_eval t w : evalX (u_std t w) = Xreal (uR_std t w).
Proof.
  destruct t; unfold u_std, uR_std; cbn [evalX]; rewrite xdy_real; reflexivity.
Qed.

Lemma u_oc_eval t w : evalX (u_oc t w) = Xreal (uR_oc t w).
Proof.
  destruct t; unfold u_oc, uR_oc; cbn [evalX]; rewrite xdy_real, plus_IZR; reflexivity.
Qed.

Lemma IZR_2_53 : IZR (2 ^ 53) = 2 ^ 53. Proof. rewrite (pow_IZR 2 53). reflexivity. Qed.
Lemma IZR_2_24 : IZR (2 ^ 24) = 2 ^ 24. Proof. rewrite (pow_IZR 2 24). reflexivity. Qed.

Lemma div_lt_1 a b : 0 < b -> a < b -> a / b < 1.
Proof. intros Hb. apply Rcomplements.Rdiv_lt_1, Hb. Qed.
Lemma div_le_1 a b : 0 < b -> a <= b -> a / b <= 1.
Proof. intros Hb. apply Rcomplements.Rdiv_le_1, Hb. Qed.
Lemma div_ge_0 a b : 0 < b -> 0 <= a -> 0 <= a / b.
Proof. intros Hb Ha. now apply Rcomplements.Rdiv_le_0_compat. Qed.
Lemma div_gt_0 a b : 0 < b -> 0 < a -> 0 < a / b.
Proof. intros Hb Ha. now apply Rdiv_lt_0_compat. Qed.

(* the top p bits of a word *)
Lemma top_range w p : word w -> (0 <= p <= 64)%Z -> (0 <= w / 2 ^ (64 - p) < 2 ^ p)%Z.
Proof.
  intros [H0 H1] Hp. assert (0 < 2 ^ (64 - p))%Z by (apply Z.pow_pos_nonneg; lia).
  split; [apply Z.div_pos; lia|]. apply Z.div_lt_upper_bound; [lia|].
  rewrite <- Z.pow_add_r by lia. now replace (64 - p + p)%Z with 64%Z by lia.
Qed.
Lemma top53_range w : word w -> (0 <= w / 2 ^ 11 <= 2 ^ 53 - 1)%Z.
Proof. intros H. pose proof (top_range w 53 H). change (64 - 53)%Z with 11%Z in *. lia. Qed.

(* both float types draw  (top fprec bits [+ 1]) / 2^fprec *)
Lemma fprec_range t : (0 <= fprec t <= 64)%Z.
Proof. destruct t; cbn; lia. Qed.
Lemma uR_std_top t w : uR_std t w = IZR (w / 2 ^ (64 - fprec t)) / IZR (2 ^ fprec t).
Proof.
  destruct t; unfold uR_std, fprec, hi32; [rewrite Z.div_div, IZR_2_24 by lia|rewrite IZR_2_53]; reflexivity.
Qed.
Lemma uR_oc_top t w : uR_oc t w = (IZR (w / 2 ^ (64 - fprec t)) + 1) / IZR (2 ^ fprec t).
Proof.
  destruct t; unfold uR_oc, fprec, hi32; [rewrite Z.div_div, IZR_2_24 by lia|rewrite IZR_2_53]; reflexivity.
Qed.

(* a StandardUniform draw lies in [0,1) *)
Lemma uR_std_range t w : word w -> 0 <= uR_std t w < 1.
Proof.
  intros H. rewrite uR_std_top. destruct (top_range w _ H (fprec_range t)) as [A B].
  apply IZR_le in A. apply IZR_lt in B. split; [apply div_ge_0|apply div_lt_1]; lra.
Qed.

(* an OpenClosed01 draw lies in (0,1] *)
Lemma uR_oc_range t w : word w -> 0 < uR_oc t w <= 1.
Proof.
  intros H. rewrite uR_oc_top. destruct (top_range w _ H (fprec_range t)) as [A B].
  apply IZR_le in A. apply Zlt_le_succ, IZR_le in B. rewrite succ_IZR in B.
  split; [apply div_gt_0|apply div_le_1]; lra.
Qed.

(* the OpenClosed01 draw is 1 exactly for the top 2^11 (f64) / 2^40 (f32) words *)
Lemma uR_oc_one t w : word w ->
  (uR_oc t w = 1 <-> (match t with F64 => 2 ^ 64 - 2 ^ 11 | F32 => 2 ^ 64 - 2 ^ 40 end <= w)%Z).
Proof.
  intros H. transitivity (w / 2 ^ (64 - fprec t) + 1 = 2 ^ fprec t)%Z.
  - destruct (top_range w _ H (fprec_range t)) as [A B]. apply IZR_le in A. apply IZR_lt in B.
    rewrite uR_oc_top, <- (plus_IZR _ 1). split; intros E.
    + apply eq_IZR, (Rmult_eq_reg_r (/ IZR (2 ^ fprec t))); [|apply Rinv_neq_0_compat; lra].
      rewrite Rinv_r by lra. exact E.
    + rewrite E. apply Rinv_r. lra.
  - destruct H, t; cbn [fprec]; simpl (64 - _)%Z; Z.div_mod_to_equations; lia.
Qed.

(* Open01: (2 * (top fprec-1 bits) + 1) / 2^fprec lies in (0,1) *)
Lemma odd_frac_range z n : (0 <= z < 2 ^ Z.of_nat n)%Z -> 0 < IZR (2 * z + 1) / (2 * 2 ^ n) < 1.
Proof.
  intros Hz. assert (0 < 2 * z + 1 < 2 * 2 ^ Z.of_nat n)%Z as [A B] by lia.
  apply IZR_lt in A, B. rewrite mult_IZR, <- pow_IZR in B.
  split; [apply div_gt_0|apply div_lt_1]; lra.
Qed.
Lemma u_open_range t w : word w -> exists U, evalX (u_open t w) = Xreal U /\ 0 < U < 1.
Proof.
  intros H. destruct t; cbn [u_open evalX]; rewrite xdy_real; eexists; (split; [reflexivity|]).
  - unfold hi32. rewrite Z.div_div by lia. apply (odd_frac_range _ 23), (top_range w 23 H). lia.
  - apply (odd_frac_range _ 52), (top_range w 52 H). lia.
Qed.

(* *_run: one word, one expression *)
Definition cauchy_expr (t : fty) (median scale : Z * Z) (w : Z) : expr :=
  Bin Add (dyx median) (Bin Mul (dyx scale) (Un Tan (Bin Mul Pi (u_std t w)))).
Definition pareto_expr (t : fty) (scale shape : Z * Z) (w : Z) : expr :=
  Bin Mul (dyx scale) (Bin Pow (u_oc t w) (Bin Div (num (-1)) (dyx shape))).
Definition weibull_expr (t : fty) (scale shape : Z * Z) (w : Z) : expr :=
  Bin Mul (dyx scale) (Bin Pow (Un Neg (Un Ln (u_oc t w))) (Bin Div (num 1) (dyx shape))).
Definition gumbel_expr (t : fty) (loc scale : Z * Z) (w : Z) : expr :=
  Bin Sub (dyx loc) (Bin Mul (dyx scale) (Un Ln (Un Neg (Un Ln (u_oc t w))))).
Definition frechet_expr (t : fty) (loc scale shape : Z * Z) (w : Z) : expr :=
  Bin Add (dyx loc)
    (Bin Mul (dyx scale) (Bin Pow (Un Neg (Un Ln (u_oc t w))) (Un Neg (Bin Div (num 1) (dyx shape))))).
(* triangular: the two sides of the comparison and the two leaves *)
Definition tri_frange (t : fty) (mn mx : Z * Z) (w : Z) : expr :=
  Bin Mul (u_std t w) (Bin Sub (dyx mx) (dyx mn)).
Definition tri_dmm (mn mode : Z * Z) : expr := Bin Sub (dyx mode) (dyx mn).
Definition tri_lo_expr (t : fty) (mn mx mode : Z * Z) (w : Z) : expr :=
  Bin Add (dyx mn) (Un Sqrt (Bin Mul (tri_frange t mn mx w) (tri_dmm mn mode))).
Definition tri_hi_expr (t : fty) (mn mx mode : Z * Z) (w : Z) : expr :=
  Bin Sub (dyx mx)
    (Un Sqrt (Bin Mul (Bin Sub (Bin Sub (dyx mx) (dyx mn)) (tri_frange t mn mx w)) (Bin Sub (dyx mx) (dyx mode)))).

Theorem cauchy_run t median scale w ws :
  cauchy t median scale (w :: ws) = Ret (cauchy_expr t median scale w, ws).
Proof. reflexivity. Qed.
Theorem pareto_run t scale shape w ws :
  pareto t scale shape (w :: ws) = Ret (pareto_expr t scale shape w, ws).
Proof. reflexivity. Qed.
Theorem weibull_run t scale shape w ws :
  weibull t scale shape (w :: ws) = Ret (weibull_expr t scale shape w, ws).
Proof. reflexivity. Qed.
Theorem gumbel_run t loc scale w ws :
  gumbel t loc scale (w :: ws) = Ret (gumbel_expr t loc scale w, ws).
Proof. reflexivity. Qed.
Theorem frechet_run t loc scale shape w ws :
  frechet t loc scale shape (w :: ws) = Ret (frechet_expr t loc scale shape w, ws).
Proof. reflexivity. Qed.
(* one comparison  f*range < mode-min  and one expression on each side of it *)
Theorem triangular_run t mn mx mode w ws :
  exists k, triangular t mn mx mode (w :: ws) = Ask CLt (tri_frange t mn mx w) (tri_dmm mn mode) k
         /\ k true = Ret (tri_lo_expr t mn mx mode w, ws)
         /\ k false = Ret (tri_hi_expr t mn mx mode w, ws).
Proof.
  exists (fun lt : bool =>
    (if lt then sret (tri_lo_expr t mn mx mode w) else sret (tri_hi_expr t mn mx mode w)) ws).
  repeat split; reflexivity.
Qed.
(* with no word left every one of them stops with code 1 *)
Theorem invcdf_run_nil t a b c :
  cauchy t a b [] = Fail 1 /\ pareto t a b [] = Fail 1 /\ weibull t a b [] = Fail 1 /\
  gumbel t a b [] = Fail 1 /\ frechet t a b c [] = Fail 1 /\ triangular t a b c [] = Fail 1.
Proof. repeat split; reflexivity. Qed.

(* exp : R -> (0,oo) and ln are mutually inverse and increasing; every law below peels Q and F
   down to a linear inequality with [exp_le_ln] and [ln_le_exp] *)
Lemma ln_le_iff a b : 0 < a -> 0 < b -> (ln a <= ln b <-> a <= b).
Proof. intros Ha Hb. now rewrite ln_le_exp, exp_ln. Qed.
Lemma div_le_iff k a b : 0 < k -> (k * a <= b <-> a <= b / k).
Proof. intros Hk. rewrite Rmult_comm. now apply Rcomplements.Rle_div_r. Qed.
Lemma div_le_iff2 k a b : 0 < k -> (a / k <= b <-> a <= k * b).
Proof. intros Hk. rewrite (Rmult_comm k). now apply Rcomplements.Rle_div_l. Qed.
Lemma ln_neg_pos u : 0 < u < 1 -> 0 < - ln u.
Proof. intros [H0 H1]. pose proof (ln_increasing u 1 H0 H1) as L. rewrite ln_1 in L. lra. Qed.

(* the parameters and the word of the examples *)
Lemma dyR_int n : dyR (n, 0%Z) = IZR n.
Proof. unfold dyR. cbn. ring. Qed.
Lemma word_half : word (2 ^ 63).
Proof. unfold word. lia. Qed.
Lemma uR_oc_half : uR_oc F64 (2 ^ 63) = (2 ^ 52 + 1) / 2 ^ 53.
Proof. unfold uR_oc. change (2 ^ 63 / 2 ^ 11)%Z with (2 ^ Z.of_nat 52)%Z. now rewrite <- pow_IZR. Qed.
Lemma uR_std_half : uR_std F64 (2 ^ 63) = 1 / 2.
Proof. unfold uR_std. change (2 ^ 63 / 2 ^ 11)%Z with (2 ^ Z.of_nat 52)%Z. rewrite <- pow_IZR. field. Qed.

(* Weibull(lambda, k): sample = lambda * (-ln u)^(1/k), u in (0,1] *)
Definition Q_weibull (lambda k u : R) : R := lambda * Rpower (- ln u) (1 / k).
(* CDF (Wikipedia; integral of the density in the doc comment of weibull.rs):
   F(x) = 1 - exp(-(x/lambda)^k) for x > 0, 0 for x <= 0 *)
Definition F_weibull (lambda k x : R) : R :=
  if Rlt_dec 0 x then 1 - exp (- Rpower (x / lambda) k) else 0.

Theorem weibull_value t scale shape w :
  0 < dyR scale -> 0 < dyR shape -> word w -> uR_oc t w < 1 ->
  evalX (weibull_expr t scale shape w) = Xreal (Q_weibull (dyR scale) (dyR shape) (uR_oc t w)).
Proof.
  intros Hs Hk Hw H1. pose proof (uR_oc_range t w Hw) as [H0 _].
  unfold weibull_expr. cbn [evalX xun xbin].
  rewrite !dyx_eval, num_eval, u_oc_eval, Xln_pos, Xneg_real, Xdiv_nz, Xpow_pos by (try apply ln_neg_pos; lra).
  reflexivity.
Qed.
(* the draws u = 1 have no real value: (-ln 1)^(1/k) = 0^(1/k) is exp(1/k * ln 0) *)
Theorem weibull_undefined t scale shape w :
  uR_oc t w = 1 -> evalX (weibull_expr t scale shape w) = Xnan.
Proof.
  intros H1. unfold weibull_expr. cbn [evalX xun xbin].
  rewrite !dyx_eval, u_oc_eval, H1, Xln_pos, ln_1, Xneg_real, Xpow_nonpos by lra. reflexivity.
Qed.

(* Q is decreasing in u: the sample is <= x exactly when u is at least the survival function at x *)
Theorem weibull_event lambda k u x :
  0 < lambda -> 0 < k -> 0 < u < 1 ->
  (Q_weibull lambda k u <= x <-> 1 - F_weibull lambda k x <= u).
Proof.
  intros Hl Hk Hu. pose proof (ln_neg_pos u Hu) as HL. unfold Q_weibull, F_weibull, Rpower.
  destruct (Rlt_dec 0 x) as [Hx|Hx].
  - pose proof (div_gt_0 x lambda Hl Hx) as Hxl.
    rewrite div_le_iff, exp_le_ln by assumption.
    replace (1 / k * ln (- ln u)) with (ln (- ln u) / k) by (field; lra).
    rewrite div_le_iff2, ln_le_exp by assumption.
    transitivity (exp (- exp (k * ln (x / lambda))) <= u); [|lra].
    rewrite exp_le_ln by lra. lra.
  - pose proof (Rmult_lt_0_compat _ _ Hl (exp_pos (1 / k * ln (- ln u)))). lra.
Qed.

Example weibull_nonvacuous :
  evalX (weibull_expr F64 (3, 0)%Z (2, 0)%Z (2 ^ 63)) = Xreal (Q_weibull 3 2 ((2 ^ 52 + 1) / 2 ^ 53)) /\
  (forall u x, 0 < u < 1 -> (Q_weibull 3 2 u <= x <-> 1 - F_weibull 3 2 x <= u)).
Proof.
  split.
  - rewrite <- uR_oc_half, <- (dyR_int 3), <- (dyR_int 2).
    apply weibull_value; rewrite ?dyR_int, ?uR_oc_half; try lra. exact word_half.
  - intros u x Hu. apply weibull_event; lra.
Qed.

(* Pareto(xm, alpha): sample = xm * u^(-1/alpha), u in (0,1] *)
Definition Q_pareto (xm alpha u : R) : R := xm * Rpower u (-1 / alpha).
(* CDF (Wikipedia): F(x) = 1 - (xm/x)^alpha for x >= xm, 0 for x < xm *)
Definition F_pareto (xm alpha x : R) : R :=
  if Rle_dec xm x then 1 - Rpower (xm / x) alpha else 0.

(* defined for every word, u = 1 included *)
Theorem pareto_value t scale shape w :
  0 < dyR scale -> 0 < dyR shape -> word w ->
  evalX (pareto_expr t scale shape w) = Xreal (Q_pareto (dyR scale) (dyR shape) (uR_oc t w)).
Proof.
  intros Hs Hk Hw. pose proof (uR_oc_range t w Hw) as [H0 _].
  unfold pareto_expr. cbn [evalX xun xbin].
  rewrite !dyx_eval, num_eval, u_oc_eval, Xdiv_nz, Xpow_pos by lra. reflexivity.
Qed.

(* Q is decreasing in u *)
Theorem pareto_event xm alpha u x :
  0 < xm -> 0 < alpha -> 0 < u <= 1 -> (xm <= x \/ u < 1) ->
  (Q_pareto xm alpha u <= x <-> 1 - F_pareto xm alpha x <= u).
Proof.
  intros Hm Ha Hu Hx. unfold Q_pareto, F_pareto, Rpower.
  replace (-1 / alpha * ln u) with ((- ln u) / alpha) by (field; lra).
  destruct (Rle_dec xm x) as [Hx'|Hx'].
  - pose proof (div_gt_0 x xm Hm ltac:(lra)) as Hq.
    rewrite div_le_iff, exp_le_ln, div_le_iff2 by assumption.
    transitivity (exp (alpha * ln (xm / x)) <= u); [|lra].
    rewrite exp_le_ln by lra.
    replace (xm / x) with (/ (x / xm)) by (field; lra). rewrite ln_Rinv by assumption. lra.
  - (* x < xm < Q u *)
    destruct Hx as [Hx|Hx]; [lra|]. pose proof (ln_neg_pos u ltac:(lra)) as HL.
    pose proof (exp_increasing 0 (- ln u / alpha) (div_gt_0 _ _ Ha HL)) as E. rewrite exp_0 in E.
    split; [nra|lra].
Qed.

Example pareto_nonvacuous :
  evalX (pareto_expr F64 (3, 0)%Z (2, 0)%Z (2 ^ 63)) = Xreal (Q_pareto 3 2 ((2 ^ 52 + 1) / 2 ^ 53)) /\
  (forall u x, 0 < u <= 1 -> 3 <= x -> (Q_pareto 3 2 u <= x <-> 1 - F_pareto 3 2 x <= u)).
Proof.
  split.
  - rewrite <- uR_oc_half, <- (dyR_int 3), <- (dyR_int 2).
    apply pareto_value; rewrite ?dyR_int; try lra. exact word_half.
  - intros u x Hu Hx. apply pareto_event; lra.
Qed.

(* Gumbel(mu, beta): sample = mu - beta * ln(-ln u), u in (0,1] *)
Definition Q_gumbel (mu beta u : R) : R := mu - beta * ln (- ln u).
(* CDF (Wikipedia; integral of the density in the doc comment of gumbel.rs): F(x) = exp(-exp(-(x-mu)/beta)) *)
Definition F_gumbel (mu beta x : R) : R := exp (- exp (- (x - mu) / beta)).

Theorem gumbel_value t loc scale w :
  0 < dyR scale -> word w -> uR_oc t w < 1 ->
  evalX (gumbel_expr t loc scale w) = Xreal (Q_gumbel (dyR loc) (dyR scale) (uR_oc t w)).
Proof.
  intros Hs Hw H1. pose proof (uR_oc_range t w Hw) as [H0 _].
  unfold gumbel_expr. cbn [evalX xun xbin].
  rewrite !dyx_eval, u_oc_eval, Xln_pos, Xneg_real, Xln_pos by (try apply ln_neg_pos; lra). reflexivity.
Qed.
(* u = 1: ln(-ln 1) = ln 0 has no real value *)
Theorem gumbel_undefined t loc scale w :
  uR_oc t w = 1 -> evalX (gumbel_expr t loc scale w) = Xnan.
Proof.
  intros H1. unfold gumbel_expr. cbn [evalX xun xbin].
  rewrite !dyx_eval, u_oc_eval, H1, Xln_pos, ln_1, Xneg_real, Xln_nonpos by lra. reflexivity.
Qed.

(* Q is increasing in u; every real x is in the support *)
Theorem gumbel_event mu beta u x :
  0 < beta -> 0 < u < 1 ->
  (Q_gumbel mu beta u <= x <-> u <= F_gumbel mu beta x).
Proof.
  intros Hb Hu. pose proof (ln_neg_pos u Hu) as HL. unfold Q_gumbel, F_gumbel.
  rewrite <- ln_le_exp by lra.
  transitivity (exp (- (x - mu) / beta) <= - ln u); [|lra].
  rewrite exp_le_ln, div_le_iff2 by assumption. lra.
Qed.

Example gumbel_nonvacuous :
  evalX (gumbel_expr F64 (-5, 0)%Z (3, 0)%Z (2 ^ 63)) = Xreal (Q_gumbel (-5) 3 ((2 ^ 52 + 1) / 2 ^ 53)) /\
  (forall u x, 0 < u < 1 -> (Q_gumbel (-5) 3 u <= x <-> u <= F_gumbel (-5) 3 x)).
Proof.
  split.
  - rewrite <- uR_oc_half, <- (dyR_int 3), <- (dyR_int (-5)).
    apply gumbel_value; rewrite ?dyR_int, ?uR_oc_half; try lra. exact word_half.
  - intros u x Hu. apply gumbel_event; lra.
Qed.

(* Frechet(alpha, mu, sigma): sample = mu + sigma * (-ln u)^(-1/alpha), u in (0,1] *)
Definition Q_frechet (mu sigma alpha u : R) : R := mu + sigma * Rpower (- ln u) (- (1 / alpha)).
(* CDF (Wikipedia; integral of the density in the doc comment of frechet.rs):
   F(x) = exp(-((x-mu)/sigma)^(-alpha)) for x > mu, 0 for x <= mu *)
Definition F_frechet (mu sigma alpha x : R) : R :=
  if Rlt_dec mu x then exp (- Rpower ((x - mu) / sigma) (- alpha)) else 0.

Theorem frechet_value t loc scale shape w :
  0 < dyR scale -> 0 < dyR shape -> word w -> uR_oc t w < 1 ->
  evalX (frechet_expr t loc scale shape w) =
  Xreal (Q_frechet (dyR loc) (dyR scale) (dyR shape) (uR_oc t w)).
Proof.
  intros Hs Hk Hw H1. pose proof (uR_oc_range t w Hw) as [H0 _].
  unfold frechet_expr. cbn [evalX xun xbin].
  rewrite !dyx_eval, num_eval, u_oc_eval, Xln_pos, Xdiv_nz, !Xneg_real, Xpow_pos by (try apply ln_neg_pos; lra).
  reflexivity.
Qed.
(* u = 1: (-ln 1)^(-1/alpha) = 0^(-1/alpha) has no real value *)
Theorem frechet_undefined t loc scale shape w :
  uR_oc t w = 1 -> evalX (frechet_expr t loc scale shape w) = Xnan.
Proof.
  intros H1. unfold frechet_expr. cbn [evalX xun xbin].
  rewrite !dyx_eval, u_oc_eval, H1, Xln_pos, ln_1, Xneg_real, Xpow_nonpos by lra. reflexivity.
Qed.

(* Q is increasing in u *)
Theorem frechet_event mu sigma alpha u x :
  0 < sigma -> 0 < alpha -> 0 < u < 1 ->
  (Q_frechet mu sigma alpha u <= x <-> u <= F_frechet mu sigma alpha x).
Proof.
  intros Hs Ha Hu. pose proof (ln_neg_pos u Hu) as HL. unfold Q_frechet, F_frechet, Rpower.
  destruct (Rlt_dec mu x) as [Hx|Hx].
  - pose proof (div_gt_0 (x - mu) sigma Hs ltac:(lra)) as Hy.
    transitivity (sigma * exp (- (1 / alpha) * ln (- ln u)) <= x - mu); [lra|].
    rewrite div_le_iff, exp_le_ln by assumption.
    rewrite <- ln_le_exp by lra.
    transitivity (exp (- alpha * ln ((x - mu) / sigma)) <= - ln u); [|lra].
    rewrite exp_le_ln by assumption.
    replace (- (1 / alpha) * ln (- ln u)) with ((- ln (- ln u)) / alpha) by (field; lra).
    rewrite div_le_iff2 by assumption. lra.
  - pose proof (Rmult_lt_0_compat _ _ Hs (exp_pos (- (1 / alpha) * ln (- ln u)))). lra.
Qed.

Example frechet_nonvacuous :
  evalX (frechet_expr F64 (-5, 0)%Z (3, 0)%Z (2, 0)%Z (2 ^ 63)) =
    Xreal (Q_frechet (-5) 3 2 ((2 ^ 52 + 1) / 2 ^ 53)) /\
  (forall u x, 0 < u < 1 -> (Q_frechet (-5) 3 2 u <= x <-> u <= F_frechet (-5) 3 2 x)).
Proof.
  split.
  - rewrite <- uR_oc_half, <- (dyR_int 3), <- (dyR_int 2), <- (dyR_int (-5)).
    apply frechet_value; rewrite ?dyR_int, ?uR_oc_half; try lra. exact word_half.
  - intros u x Hu. apply frechet_event; lra.
Qed.

(* Cauchy(x0, gamma): sample = x0 + gamma * tan(pi * u), u in [0,1) *)
Definition Q_cauchy (x0 gamma u : R) : R := x0 + gamma * tan (PI * u).
(* CDF (Wikipedia; integral of the density in the doc comment of cauchy.rs):
   F(x) = 1/2 + atan((x - x0)/gamma)/pi *)
Definition F_cauchy (x0 gamma x : R) : R := 1 / 2 + atan ((x - x0) / gamma) / PI.

Lemma cos_PIu_nz u : 0 <= u < 1 -> u <> 1 / 2 -> cos (PI * u) <> 0.
Proof.
  intros Hu Hn E. pose proof PI_RGT_0 as P.
  destruct (cos_eq_0_2PI_0 (PI * u)) as [K|K]; [nra|nra|assumption| |]; apply Hn; nra.
Qed.

Theorem cauchy_value t median scale w :
  0 < dyR scale -> word w -> uR_std t w <> 1 / 2 ->
  evalX (cauchy_expr t median scale w) = Xreal (Q_cauchy (dyR median) (dyR scale) (uR_std t w)).
Proof.
  intros Hs Hw Hn. pose proof (uR_std_range t w Hw) as Hu.
  unfold cauchy_expr. cbn [evalX xun xbin].
  rewrite !dyx_eval, u_std_eval. cbn [Xmul Xlift2 Xbind2]. rewrite Xtan_ok by (apply cos_PIu_nz; assumption). reflexivity.
Qed.
(* the draw u = 1/2 (f64: the 2^11 words from 2^63 on) has no real value: tan(pi/2) *)
Theorem cauchy_undefined t median scale w :
  uR_std t w = 1 / 2 -> evalX (cauchy_expr t median scale w) = Xnan.
Proof.
  intros E. unfold cauchy_expr. cbn [evalX xun xbin]. rewrite !dyx_eval, u_std_eval, E.
  cbn [Xbind2 Xbind]. unfold Xtan'. replace (PI * (1 / 2)) with (PI / 2) by field.
  rewrite cos_PI2, is_zero_0. reflexivity.
Qed.

(* tan : (-pi/2, pi/2) -> R and atan are mutually inverse and increasing *)
Lemma tan_le_atan th y : - (PI / 2) < th < PI / 2 -> (tan th <= y <-> th <= atan y).
Proof.
  intros Hth. pose proof (atan_bound y) as B. split; intros H; apply Rnot_lt_le; intros L.
  - apply tan_increasing in L; [rewrite tan_atan in L|..]; lra.
  - apply atan_increasing in L. rewrite atan_tan in L; lra.
Qed.

(* tan(pi u) = tan(pi u - pi) on the upper half *)
Lemma tan_PIu_shift u : 1 / 2 < u < 1 -> tan (PI * u) = tan (PI * u - PI).
Proof.
  intros Hu. pose proof PI_RGT_0 as P.
  replace (PI * u) with (PI + (PI * u - PI)) at 1 by ring.
  apply Rtrigo_facts.tan_pi_plus.
  apply Rgt_not_eq. apply cos_gt_0; nra.
Qed.

(* the sample is the documented quantile  x0 + gamma * tan(pi * (v - 1/2))  at the rotated
   position v = u + 1/2 mod 1:  atan of the standardised sample is pi*u on [0,1/2) and pi*u - pi on (1/2,1) *)
Theorem cauchy_atan x0 gamma u :
  0 < gamma ->
  (0 <= u < 1 / 2 -> atan ((Q_cauchy x0 gamma u - x0) / gamma) = PI * u) /\
  (1 / 2 < u < 1 -> atan ((Q_cauchy x0 gamma u - x0) / gamma) = PI * u - PI).
Proof.
  intros Hg. pose proof PI_RGT_0 as P. unfold Q_cauchy.
  replace ((x0 + gamma * tan (PI * u) - x0) / gamma) with (tan (PI * u)) by (field; lra).
  split; intros Hu.
  - apply atan_tan. split; nra.
  - rewrite tan_PIu_shift by assumption. apply atan_tan. split; nra.
Qed.

(* law: a uniform u on [0,1/2) u (1/2,1), rotated by 1/2, is compared with F *)
Theorem cauchy_event x0 gamma u x :
  0 < gamma ->
  (0 <= u < 1 / 2 -> (Q_cauchy x0 gamma u <= x <-> u + 1 / 2 <= F_cauchy x0 gamma x)) /\
  (1 / 2 < u < 1 -> (Q_cauchy x0 gamma u <= x <-> u - 1 / 2 <= F_cauchy x0 gamma x)).
Proof.
  intros Hg. pose proof PI_RGT_0 as P. unfold Q_cauchy, F_cauchy.
  assert (S : forall th, x0 + gamma * tan th <= x <-> tan th <= (x - x0) / gamma).
  { intros th. rewrite <- div_le_iff by assumption. lra. }
  split; intros Hu; rewrite S.
  - rewrite tan_le_atan by (split; nra).
    rewrite div_le_iff by lra. lra.
  - rewrite tan_PIu_shift by assumption. rewrite tan_le_atan by (split; nra).
    transitivity (PI * (u - 1) <= atan ((x - x0) / gamma)); [lra|].
    rewrite div_le_iff by lra. lra.
Qed.

Example cauchy_nonvacuous :
  evalX (cauchy_expr F64 (-5, 0)%Z (3, 0)%Z (2 ^ 62)) = Xreal (Q_cauchy (-5) 3 (1 / 4)) /\
  evalX (cauchy_expr F64 (-5, 0)%Z (3, 0)%Z (2 ^ 63)) = Xnan /\
  (forall x, Q_cauchy (-5) 3 (1 / 4) <= x <-> 3 / 4 <= F_cauchy (-5) 3 x) /\
  (forall x, Q_cauchy (-5) 3 (3 / 4) <= x <-> 1 / 4 <= F_cauchy (-5) 3 x).
Proof.
  assert (U : uR_std F64 (2 ^ 62) = 1 / 4).
  { unfold uR_std. change (2 ^ 62 / 2 ^ 11)%Z with (2 ^ Z.of_nat 51)%Z. rewrite <- pow_IZR. field. }
  split; [|split; [|split]].
  - rewrite <- U, <- (dyR_int 3), <- (dyR_int (-5)).
    apply cauchy_value; rewrite ?dyR_int, ?U; try lra. unfold word; lia.
  - apply cauchy_undefined, uR_std_half.
  - intros x. destruct (cauchy_event (-5) 3 (1 / 4) x ltac:(lra)) as [E _].
    rewrite (E ltac:(lra)). split; lra.
  - intros x. destruct (cauchy_event (-5) 3 (3 / 4) x ltac:(lra)) as [_ E].
    rewrite (E ltac:(lra)). split; lra.
Qed.
