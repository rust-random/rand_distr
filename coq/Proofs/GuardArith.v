(* Proofs/GuardArith.v — facts about Flocq's rounded operations used by the C04 proofs:
   NaN-ness, sign, and value as a clamped rounding on the extended-real view [ext].            *)
From Coq Require Import ZArith List Bool String Reals Lra Lia.
From Flocq Require Import Core.Core Plus_error IEEE754.Binary IEEE754.Bits IEEE754.BinarySingleNaN.
From RD Require Import Model.Guards Model.GuardSpec Proofs.GuardLemmas Proofs.AffineFl.
Import ListNotations.
Open Scope R_scope.

Section Fmt.
Variable prec emax : Z.
Context (Hp : Prec_gt_0 prec) (Hpe : Prec_lt_emax prec emax).
Notation float := (binary_float prec emax).
Notation one := (one prec emax Hp Hpe).
Notation zero := (zero prec emax).
Notation fdiv := (fdiv prec emax Hp Hpe).
Notation fmul := (fmul prec emax Hp Hpe).
Notation fadd := (fadd prec emax Hp Hpe).
Notation fsub := (fsub prec emax Hp Hpe).
Notation fgt := (fgt prec emax).

Lemma overflow_NE (s : bool) : binary_overflow prec emax mode_NE s = SpecFloat.S754_infinity s.
Proof. reflexivity. Qed.

Lemma B2SF_inf_inv (r : float) (s : bool) : B2SF r = SpecFloat.S754_infinity s -> r = B754_infinity s.
Proof. destruct r; simpl; intros E; try discriminate. now inversion E. Qed.

Lemma Bdiv_nan_sign (x y : float) :
  is_finite x = true -> B2R y <> 0 ->
  is_nan (fdiv x y) = false /\ Bsign (fdiv x y) = xorb (Bsign x) (Bsign y).
Proof.
  intros Fx Ny. unfold Guards.fdiv.
  generalize (Bdiv_correct prec emax Hp Hpe mode_NE x y Ny).
  destruct Rlt_bool.
  - intros (_ & F & S). rewrite Fx in F.
    assert (N := is_finite_not_nan _ _ _ F). auto.
  - rewrite overflow_NE. intros E. apply B2SF_inf_inv in E. rewrite E. auto.
Qed.

Lemma Bmult_nan_sign (x y : float) :
  is_finite x = true -> is_finite y = true ->
  is_nan (fmul x y) = false /\ Bsign (fmul x y) = xorb (Bsign x) (Bsign y).
Proof.
  intros Fx Fy. unfold Guards.fmul.
  generalize (Bmult_correct prec emax Hp Hpe mode_NE x y).
  destruct Rlt_bool.
  - intros (_ & F & S). rewrite Fx, Fy in F.
    assert (N := is_finite_not_nan _ _ _ F). auto.
  - rewrite overflow_NE. intros E. apply B2SF_inf_inv in E. rewrite E. auto.
Qed.

(* `x > 0` as a structural fact *)
Lemma fgt_zero_inv (x : float) :
  fgt x zero = true ->
  x = B754_infinity false \/ (exists m e H, x = B754_finite false m e H).
Proof.
  destruct x as [s|[|]| |[|] m e H]; unfold Guards.fgt, fcmp, Bcompare; simpl; try discriminate; eauto.
Qed.

Lemma finite_pos_B2R (m : positive) (e : Z) (H : SpecFloat.bounded prec emax m e = true) :
  0 < B2R (B754_finite false m e H : float).
Proof. simpl. apply F2R_gt_0. reflexivity. Qed.

(* Exp::new(1/scale).unwrap() inside Gamma::new cannot panic *)
Lemma Exp_new_fdiv_one (y : float) :
  fgt y zero = true -> Exp_new prec emax (fdiv one y) = GOk.
Proof.
  intros G. destruct (fgt_zero_inv y G) as [-> | (m & e & H & ->)].
  - destruct (one_struct prec emax Hp Hpe) as (m1 & e1 & H1 & ->). reflexivity.
  - destruct (Bdiv_nan_sign one (B754_finite false m e H)) as (N & S).
    + apply one_fin.
    + apply Rgt_not_eq, finite_pos_B2R.
    + unfold Exp_new, f_is_sign_negative, f_is_nan. rewrite N, S.
      destruct (one_struct prec emax Hp Hpe) as (m1 & e1 & H1 & ->). reflexivity.
Qed.

(* all `unwrap()`s inside Gamma::new succeed *)
Lemma Gamma_new_eq (shape scale : float) :
  Gamma_new prec emax Hp Hpe shape scale =
  chain [(negb (fgt shape zero), "ShapeTooSmall"); (negb (fgt scale zero), "ScaleTooSmall")].
Proof.
  unfold Gamma_new.
  destruct (fgt shape zero); simpl; [|reflexivity].
  destruct (fgt scale zero) eqn:G; simpl; [|reflexivity].
  destruct (_ || _); [reflexivity|].
  destruct (feq _ _ _ _); [|reflexivity].
  now rewrite Exp_new_fdiv_one.
Qed.


(* Values: rounding, clamping, and the extended-real value of each operation on finite inputs *)
Notation M := (M emax).
Notation ext := (ext prec emax).
Notation rnd := (rnd prec emax).
Definition clamp (r : R) : R := Rmax (- M) (Rmin M r).

Lemma clamp_spec (r : R) :
  (r <= - M /\ clamp r = - M) \/ (- M <= r <= M /\ clamp r = r) \/ (M <= r /\ clamp r = M).
Proof.
  pose proof (M_gt_1 prec emax Hp Hpe). unfold clamp, Rmax, Rmin.
  destruct (Rle_dec M r); destruct (Rle_dec (- M) _); lra.
Qed.

Instance fexp_valid : Valid_exp (FLT_exp (3 - emax - prec) prec) := FLT_exp_valid _ _.

Lemma rnd_le0 (x : R) : x <= 0 -> rnd x <= 0.
Proof. intros H. rewrite <- (rnd_zero prec emax). now apply rnd_mono. Qed.

Lemma Bsign_false_ge0 (x : float) : is_finite x = true -> Bsign x = false -> 0 <= B2R x.
Proof.
  destruct x as [|?| |s m e H]; simpl; try discriminate; try lra.
  intros _ ->. apply F2R_ge_0. simpl. lia.
Qed.
Lemma Bsign_true_le0 (x : float) : is_finite x = true -> Bsign x = true -> B2R x <= 0.
Proof.
  destruct x as [|?| |s m e H]; simpl; try discriminate; try lra.
  intros _ ->. apply F2R_le_0. simpl. lia.
Qed.
Lemma B2R_pos_sign (x : float) : 0 < B2R x -> Bsign x = false.
Proof.
  destruct x as [|?| |[|] m e H]; simpl; try lra; auto.
  intros H0. exfalso. assert (F2R (Float radix2 (Z.neg m) e) < 0) by (apply F2R_lt_0; simpl; lia). lra.
Qed.
Lemma B2R_neg_sign (x : float) : B2R x < 0 -> Bsign x = true.
Proof.
  destruct x as [|?| |[|] m e H]; simpl; try lra; auto.
  intros H0. exfalso. assert (0 < F2R (Float radix2 (Z.pos m) e)) by (apply F2R_gt_0; simpl; lia). lra.
Qed.

Lemma sign_cases (x : float) : is_finite x = true ->
  (Bsign x = false /\ 0 <= B2R x) \/ (Bsign x = true /\ B2R x <= 0).
Proof.
  intros F. destruct (Bsign x) eqn:S; [right|left]; split; trivial.
  now apply Bsign_true_le0. now apply Bsign_false_ge0.
Qed.

Lemma clamp_small (r : R) : Rabs r < M -> clamp r = r.
Proof.
  intros A. apply Rabs_lt_inv in A.
  destruct (clamp_spec r) as [[]|[[]|[]]]; lra.
Qed.

(* The two cases of Flocq's correctness theorems, for a result z whose exact value is r:
   either rnd r is in range and z is that float, or z is the infinity on the side of r. *)
Lemma ext_in_range (z : float) (r : R) :
  Rabs (rnd r) < M -> B2R z = rnd r -> is_finite z = true ->
  is_nan z = false /\ ext z = clamp (rnd r).
Proof.
  intros A V F. split. now apply is_finite_not_nan.
  rewrite ext_finite, V by assumption. symmetry. now apply clamp_small.
Qed.

Lemma ext_overflow (z : float) (r : R) (s : bool) :
  M <= Rabs (rnd r) -> B2SF z = binary_overflow prec emax mode_NE s -> (if s then r <= 0 else 0 <= r) ->
  is_nan z = false /\ ext z = clamp (rnd r).
Proof.
  intros A E S. apply B2SF_inf_inv in E. rewrite E. split. reflexivity.
  pose proof (M_gt_1 prec emax Hp Hpe).
  assert (if s then rnd r <= 0 else 0 <= rnd r) by (destruct s; [apply rnd_le0|apply rnd_nonneg]; trivial).
  unfold Rabs in A. destruct (Rcase_abs (rnd r)), s, (clamp_spec (rnd r)) as [[]|[[]|[]]];
    unfold GuardSpec.ext; lra.
Qed.

Lemma Bplus_ext (x y : float) :
  is_finite x = true -> is_finite y = true ->
  is_nan (fadd x y) = false /\ ext (fadd x y) = clamp (rnd (B2R x + B2R y)).
Proof.
  intros Fx Fy. unfold Guards.fadd.
  generalize (Bplus_correct prec emax Hp Hpe mode_NE x y Fx Fy). fold (rnd (B2R x + B2R y)). fold M.
  case Rlt_bool_spec; intros A.
  - intros (V & F & _). now apply ext_in_range.
  - intros (E & S). apply (ext_overflow _ _ (Bsign x)); trivial.
    destruct (sign_cases x Fx) as [[Sx ?]|[Sx ?]], (sign_cases y Fy) as [[Sy ?]|[Sy ?]];
      rewrite Sx, Sy in * ; try discriminate; lra.
Qed.

Lemma Bminus_ext (x y : float) :
  is_finite x = true -> is_finite y = true ->
  is_nan (fsub x y) = false /\ ext (fsub x y) = clamp (rnd (B2R x - B2R y)).
Proof.
  intros Fx Fy. unfold Guards.fsub.
  generalize (Bminus_correct prec emax Hp Hpe mode_NE x y Fx Fy). fold (rnd (B2R x - B2R y)). fold M.
  case Rlt_bool_spec; intros A.
  - intros (V & F & _). now apply ext_in_range.
  - intros (E & S). apply (ext_overflow _ _ (Bsign x)); trivial.
    destruct (sign_cases x Fx) as [[Sx ?]|[Sx ?]], (sign_cases y Fy) as [[Sy ?]|[Sy ?]];
      rewrite Sx, Sy in * ; try discriminate; lra.
Qed.

Lemma Bmult_ext (x y : float) :
  is_finite x = true -> is_finite y = true ->
  is_nan (fmul x y) = false /\ ext (fmul x y) = clamp (rnd (B2R x * B2R y)).
Proof.
  intros Fx Fy. unfold Guards.fmul.
  generalize (Bmult_correct prec emax Hp Hpe mode_NE x y). fold (rnd (B2R x * B2R y)). fold M.
  case Rlt_bool_spec; intros A.
  - intros (V & F & _). rewrite Fx, Fy in F. now apply ext_in_range.
  - intros E. apply (ext_overflow _ _ _ A E).
    destruct (sign_cases x Fx) as [[-> ?]|[-> ?]], (sign_cases y Fy) as [[-> ?]|[-> ?]]; simpl; nra.
Qed.

Lemma Bdiv_ext (x y : float) :
  is_finite x = true -> is_finite y = true -> B2R y <> 0 ->
  is_nan (fdiv x y) = false /\ ext (fdiv x y) = clamp (rnd (B2R x / B2R y)).
Proof.
  intros Fx Fy Ny. unfold Guards.fdiv.
  generalize (Bdiv_correct prec emax Hp Hpe mode_NE x y Ny). fold (rnd (B2R x / B2R y)). fold M.
  case Rlt_bool_spec; intros A.
  - intros (V & F & _). rewrite Fx in F. now apply ext_in_range.
  - intros E. apply (ext_overflow _ _ _ A E). unfold Rdiv.
    pose proof (Rinv_0_lt_compat (B2R y)). pose proof (Rinv_lt_0_compat (B2R y)).
    destruct (sign_cases x Fx) as [[-> ?]|[-> ?]], (sign_cases y Fy) as [[-> ?]|[-> ?]]; simpl; nra.
Qed.

(* sign of a non-NaN extended value *)
Lemma ext_pos_sign (x : float) : is_nan x = false -> 0 < ext x -> Bsign x = false.
Proof.
  pose proof (M_gt_1 prec emax Hp Hpe).
  destruct x as [|[|]| |]; unfold GuardSpec.ext; try discriminate; intros _ P; try reflexivity; try lra.
  simpl in P; lra. now apply B2R_pos_sign.
Qed.

Lemma fcmp_finite (x y : float) : is_finite x = true -> is_finite y = true ->
  fcmp prec emax x y = Some (Rcompare (B2R x) (B2R y)).
Proof. intros. now apply Bcompare_correct. Qed.

Lemma flt_finite (x y : float) : is_finite x = true -> is_finite y = true ->
  (flt prec emax x y = true <-> B2R x < B2R y).
Proof.
  intros Fx Fy. unfold Guards.flt. rewrite fcmp_finite by trivial.
  destruct (Rcompare_spec (B2R x) (B2R y)); split; intros; try discriminate; try lra; trivial.
Qed.
Lemma fle_finite (x y : float) : is_finite x = true -> is_finite y = true ->
  (fle prec emax x y = true <-> B2R x <= B2R y).
Proof.
  intros Fx Fy. unfold Guards.fle. rewrite fcmp_finite by trivial.
  destruct (Rcompare_spec (B2R x) (B2R y)); split; intros; try discriminate; try lra; trivial.
Qed.
Lemma fgt_finite (x y : float) : is_finite x = true -> is_finite y = true ->
  (fgt x y = true <-> B2R y < B2R x).
Proof. intros. rewrite fgt_lt. now apply flt_finite. Qed.
Lemma fge_finite (x y : float) : is_finite x = true -> is_finite y = true ->
  (fge prec emax x y = true <-> B2R y <= B2R x).
Proof. intros. rewrite fge_le. now apply fle_finite. Qed.

Lemma fge_fin_cases (x c : float) :
  is_finite c = true -> fge prec emax x c = true ->
  (is_finite x = true /\ B2R c <= B2R x) \/ x = B754_infinity false.
Proof.
  intros Fc G. destruct (is_finite x) eqn:F; [left; split; trivial; now apply fge_finite|right].
  destruct x as [|[|]| |], c as [| | |]; try discriminate; reflexivity.
Qed.

(* comparison with zero through ext *)
Lemma fgt_zero_ext (x : float) : is_nan x = false -> fgt x zero = true <-> 0 < ext x.
Proof.
  intros N. destruct (is_finite x) eqn:F.
  - rewrite ext_finite by trivial. now apply (fgt_finite x zero).
  - pose proof (M_gt_1 prec emax Hp Hpe).
    destruct x as [|[|]| |]; try discriminate; unfold GuardSpec.ext; split; trivial; (discriminate || lra).
Qed.

Lemma cdy_correct (m e : Z) :
  is_finite (cdy prec emax Hp Hpe m e) = true ->
  B2R (cdy prec emax Hp Hpe m e) = rnd (F2R (Float radix2 m e)).
Proof.
  unfold cdy. generalize (binary_normalize_correct prec emax Hp Hpe mode_NE m e false). simpl.
  case Rlt_bool_spec; intros A.
  - now intros (V & _).
  - rewrite overflow_NE. intros E. apply B2SF_inf_inv in E. rewrite E. discriminate.
Qed.

Lemma B2R_of_SF (x : float) (s : bool) (m : positive) (e : Z) :
  B2SF x = SpecFloat.S754_finite s m e -> B2R x = F2R (Float radix2 (cond_Zopp s (Z.pos m)) e).
Proof. intros E. rewrite <- SF2R_B2SF, E. reflexivity. Qed.

Lemma finite_of_SF (x : float) (s : bool) (m : positive) (e : Z) :
  B2SF x = SpecFloat.S754_finite s m e -> is_finite x = true.
Proof. destruct x; simpl; intros E; try discriminate; reflexivity. Qed.

(* exact comparison with an integer *)
Lemma Rlt_bool_IZR (a b : Z) : Rlt_bool (IZR a) (IZR b) = (a <? b)%Z.
Proof. unfold Rlt_bool, Z.ltb. now rewrite Rcompare_IZR. Qed.

Lemma gtZ_correct (x : float) (z : Z) :
  is_finite x = true -> gtZ prec emax x z = Rlt_bool (IZR z) (B2R x).
Proof.
  destruct x as [s|?| |s m e H]; try discriminate; intros _; simpl.
  - symmetry. apply (Rlt_bool_IZR z 0).
  - unfold F2R; simpl Fnum; simpl Fexp. set (c := cond_Zopp s (Z.pos m)).
    destruct (Z.leb_spec 0 e) as [He|He].
    + rewrite <- (IZR_Zpower radix2), <- mult_IZR by trivial. symmetry. apply Rlt_bool_IZR.
    + (* both sides scaled by 2^(-e) *)
      unfold Rlt_bool. rewrite <- (Rcompare_mult_r (bpow radix2 (- e))) by apply bpow_gt_0.
      rewrite Rmult_assoc, <- bpow_plus, Z.add_opp_diag_r, Rmult_1_r.
      rewrite <- (IZR_Zpower radix2), <- mult_IZR by lia. now rewrite Rcompare_IZR.
Qed.

Lemma nonnan_cases (a : float) :
  is_nan a = false -> is_finite a = true \/ a = B754_infinity false \/ a = B754_infinity true.
Proof. destruct a as [|[|]| |]; try discriminate; auto. Qed.

Lemma is_finite_of_ext (x : float) : is_nan x = false -> - M < ext x < M -> is_finite x = true.
Proof.
  destruct x as [|[|]| |]; unfold GuardSpec.ext; try discriminate; try reflexivity; intros _ B; lra.
Qed.

Lemma ext_clamp_finite (r : float) (v : R) :
  is_nan r = false -> ext r = clamp v -> Rabs v < M -> is_finite r = true /\ B2R r = v.
Proof.
  intros N E A. rewrite (clamp_small v A) in E. apply Rabs_lt_inv in A.
  assert (F : is_finite r = true) by (apply is_finite_of_ext; trivial; rewrite E; trivial).
  split; trivial. now rewrite <- ext_finite.
Qed.

(* a result whose exact value lies between two floats is finite, and so does its value *)
Lemma fin_between (z : float) (v lo hi : R) :
  is_nan z = false /\ ext z = clamp (rnd v) ->
  rnd lo = lo -> rnd hi = hi -> - M < lo -> hi < M -> lo <= v <= hi ->
  is_finite z = true /\ B2R z = rnd v /\ lo <= B2R z <= hi.
Proof.
  intros (N & E) Rl Rh Bl Bh (L & U).
  assert (lo <= rnd v <= hi) by (split; [rewrite <- Rl|rewrite <- Rh]; now apply rnd_mono).
  destruct (ext_clamp_finite z _ N E) as (F & V). { apply Rabs_lt; lra. }
  rewrite V. auto.
Qed.

Lemma clamp_ge0 (v : R) : 0 <= v -> 0 <= clamp v.
Proof. pose proof (M_gt_1 prec emax Hp Hpe). destruct (clamp_spec v) as [[]|[[]|[]]]; lra. Qed.
Lemma clamp_pos (v : R) : 0 < v -> 0 < clamp v.
Proof. pose proof (M_gt_1 prec emax Hp Hpe). destruct (clamp_spec v) as [[]|[[]|[]]]; lra. Qed.
Lemma clamp_ge1 (v : R) : 1 <= v -> 1 <= clamp v.
Proof. pose proof (M_gt_1 prec emax Hp Hpe). destruct (clamp_spec v) as [[]|[[]|[]]]; lra. Qed.

(* powers of two from the smallest subnormal up are in the format *)
Lemma rnd_bpow (e : Z) : (3 - emax - prec <= e)%Z -> rnd (bpow radix2 e) = bpow radix2 e.
Proof.
  intros He. apply rnd_id, generic_format_bpow.
  unfold afexp, aemin, FLT_exp, Prec_gt_0 in *. lia.
Qed.

Lemma rnd_1 : rnd 1 = 1.
Proof. rewrite <- (one_B2R prec emax Hp Hpe). apply rnd_B2R. Qed.
Lemma rnd_m1 : rnd (-1) = -1.
Proof.
  replace (-1) with (- B2R one) by (rewrite (one_B2R prec emax Hp Hpe); lra).
  rewrite <- B2R_Bopp. apply rnd_B2R.
Qed.
Lemma rnd_le1 (x : R) : x <= 1 -> rnd x <= 1.
Proof. intros H. rewrite <- rnd_1. now apply rnd_mono. Qed.
Lemma rnd_ge1 (x : R) : 1 <= x -> 1 <= rnd x.
Proof. intros H. rewrite <- rnd_1. now apply rnd_mono. Qed.

(* the unit interval is closed under any operation whose exact result stays in it *)
Lemma fin_unit (z : float) (v : R) :
  is_nan z = false /\ ext z = clamp (rnd v) -> 0 <= v <= 1 ->
  is_finite z = true /\ 0 <= B2R z <= 1.
Proof.
  intros H B. pose proof (M_gt_1 prec emax Hp Hpe).
  destruct (fin_between z v 0 1 H (rnd_zero _ _) rnd_1) as (F & _ & Bz); auto; lra.
Qed.

(* structure of finite floats from their value *)
Lemma finite_zero_struct (x : float) : is_finite x = true -> B2R x = 0 -> x = B754_zero (Bsign x).
Proof.
  destruct x as [|?| |s m e H]; try discriminate; intros _; simpl; trivial.
  intros E. apply eq_0_F2R in E. destruct s; discriminate.
Qed.
Lemma finite_pos_struct (x : float) :
  is_finite x = true -> 0 < B2R x -> exists m e H, x = B754_finite false m e H.
Proof.
  intros F P. pose proof (B2R_pos_sign x P) as S.
  destruct x as [|?| |s m e H]; try discriminate; simpl in *; try lra. subst s. eauto.
Qed.

(* non-NaN and nonnegative, possibly +inf *)
Definition nn (x : float) : Prop := is_nan x = false /\ 0 <= ext x.

Lemma nn_mul (x y : float) :
  is_finite x = true -> is_finite y = true -> 0 <= B2R x * B2R y -> nn (fmul x y).
Proof.
  intros Fx Fy P. destruct (Bmult_ext x y Fx Fy) as (N & E).
  split; trivial. rewrite E. now apply clamp_ge0, rnd_nonneg.
Qed.

Lemma nn_div_pos (p d : float) :
  nn p -> is_finite d = true -> 0 < B2R d -> nn (fdiv p d).
Proof.
  intros (Np & Pp) Fd Pd. pose proof (M_gt_1 prec emax Hp Hpe) as HM.
  destruct (is_finite p) eqn:Fp.
  - destruct (Bdiv_ext p d Fp Fd) as (N & E). lra.
    split; trivial. rewrite E. apply clamp_ge0, (rnd_nonneg _ _ Hp).
    rewrite ext_finite in Pp by trivial.
    apply Rmult_le_pos; trivial. left. now apply Rinv_0_lt_compat.
  - destruct (finite_pos_struct d Fd Pd) as (m & e & H & ->).
    destruct p as [|[|]| |]; try discriminate.
    + unfold GuardSpec.ext in Pp. lra.
    + split. reflexivity. unfold GuardSpec.ext. simpl. lra.
Qed.

Lemma one_plus_ge1 (q : float) : nn q -> is_nan (fadd one q) = false /\ 1 <= ext (fadd one q).
Proof.
  intros (Nq & Pq). pose proof (M_gt_1 prec emax Hp Hpe) as HM.
  destruct (is_finite q) eqn:Fq.
  - destruct (Bplus_ext one q (one_fin _ _ _ _) Fq) as (N & E). split; trivial.
    rewrite ext_finite in Pq by trivial. rewrite E, (one_B2R prec emax Hp Hpe).
    apply clamp_ge1, rnd_ge1. lra.
  - destruct q as [|[|]| |]; try discriminate.
    + unfold GuardSpec.ext in Pq. lra.
    + destruct (one_struct prec emax Hp Hpe) as (m1 & e1 & H1 & ->). split. reflexivity.
      unfold GuardSpec.ext. simpl. lra.
Qed.

Lemma one_plus_nn (q : float) : nn q -> fgt (fadd one q) zero = true.
Proof.
  intros H. destruct (one_plus_ge1 q H) as (N & L). apply fgt_zero_ext; trivial. lra.
Qed.

(* the sign is positive even when the difference is zero *)
Lemma Bminus_nonneg_sign (x y : float) :
  is_finite x = true -> is_finite y = true -> Bsign x = false -> B2R y <= B2R x ->
  Bsign (fsub x y) = false.
Proof.
  intros Fx Fy Sx L. unfold Guards.fsub.
  generalize (Bminus_correct prec emax Hp Hpe mode_NE x y Fx Fy).
  destruct Rlt_bool.
  - intros (_ & _ & S). rewrite S, Sx.
    destruct (Rcompare_spec (B2R x - B2R y) 0); trivial; lra.
  - rewrite overflow_NE. intros (E & _). apply B2SF_inf_inv in E. now rewrite E, Sx.
Qed.

(* square root of a finite float of positive sign *)
Lemma Bsqrt_nonneg (t : float) :
  is_finite t = true -> Bsign t = false ->
  is_finite (fsqrt prec emax Hp Hpe t) = true /\
  B2R (fsqrt prec emax Hp Hpe t) = rnd (sqrt (B2R t)) /\
  Bsign (fsqrt prec emax Hp Hpe t) = false.
Proof.
  intros F S. unfold Guards.fsqrt.
  destruct (Bsqrt_correct prec emax Hp Hpe mode_NE t) as (V & Fs & Ss).
  assert (Fq : is_finite (Bsqrt mode_NE t) = true).
  { rewrite Fs. destruct t as [|?| |[|]]; try discriminate; reflexivity. }
  split; trivial. split. exact V.
  rewrite Ss; trivial. now apply is_finite_not_nan.
Qed.

Lemma rnd_minus_pos (x y : float) : B2R y < B2R x -> 0 < rnd (B2R x - B2R y).
Proof.
  intros L. assert (0 <= rnd (B2R x - B2R y)) by (apply (rnd_nonneg _ _ Hp); lra).
  assert (rnd (B2R x + - B2R y) <> 0).
  { apply round_plus_neq_0; [typeclasses eauto..|apply B2R_format|apply generic_format_opp, B2R_format|lra]. }
  unfold Rminus in *. lra.
Qed.

(* a constant whose exact rounding is in range is finite and has that value *)
Lemma cdy_small (m e : Z) :
  Rabs (rnd (F2R (Float radix2 m e))) < M ->
  is_finite (cdy prec emax Hp Hpe m e) = true /\
  B2R (cdy prec emax Hp Hpe m e) = rnd (F2R (Float radix2 m e)).
Proof.
  intros A. unfold cdy.
  generalize (binary_normalize_correct prec emax Hp Hpe mode_NE m e false). simpl.
  fold (rnd (F2R (Float radix2 m e))). fold M.
  rewrite Rlt_bool_true by trivial. now intros (V & F & _).
Qed.

End Fmt.
