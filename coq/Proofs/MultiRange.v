(* Proofs/MultiRange.v — C11, Beta route of the Dirichlet model: every component of every result of the
   exact semantics lies in [0,1] and they sum to one: the result is on the simplex.  The parameters of
   the Beta samplers of the chain are positive, so that the range clause of `dir_sticks_sem`
   (Proofs/MultiDirichlet.v) applies.                                                                *)
From Coq Require Import Reals List Lra.
From RD Require Import Base.Expr Base.Run Model.Sampler Model.Continuous Model.Multi.
From RD Require Import Proofs.LawsInvCdf Proofs.Support Proofs.MultiProofs Proofs.MultiDirichlet.
Open Scope Z_scope.
Open Scope sampler_scope.

Import ExprNotations.

Local Open Scope R_scope.

Lemma pos_add a b : pos a -> pos b -> pos (a +. b).
Proof. intros (x & Ex & Hx) (y & Ey & Hy). exists (x + y). cbn [evalX xbin]. rewrite Ex, Ey. split; [reflexivity|lra]. Qed.

Lemma suffix_sums_pos l : Forall pos l -> Forall pos (suffix_sums l).
Proof.
  induction 1 as [|a l Ha H IH]; [constructor|]. cbn [suffix_sums].
  destruct (suffix_sums l) as [|c q]; [constructor; [exact Ha|constructor]|].
  inversion IH; subst. constructor; [apply pos_add; assumption|exact IH].
Qed.
Lemma rev_csum_pos l : Forall pos l -> Forall pos (rev_csum l).
Proof. intros H. unfold rev_csum. apply suffix_sums_pos. destruct H; [constructor|assumption]. Qed.

Theorem dirichlet_beta_on_simplex t alpha ws out rest : Forall (fun a => 0 < dyv a) alpha ->
  evals (dirichlet_beta t alpha ws) (out, rest) ->
  forall rs, vals out rs -> Forall (fun r => 0 <= r <= 1) rs /\ sumf rs = 1.
Proof.
  intros Hpos E rs Hrs.
  destruct (allsem_elim _ _ _ (dir_sticks_sem t _ one ws) E) as [_ S]. destruct (S rs Hrs) as (A & EA & Hs & Hr).
  rewrite one_eval in EA. injection EA as <-. split; [|exact Hs]. apply Hr; [|lra].
  assert (P : Forall pos (map dyx alpha)).
  { rewrite Forall_map. revert Hpos. apply Forall_impl. intros q. apply pos_dyx. }
  pose proof (rev_csum_pos _ P) as Q. rewrite Forall_forall in P, Q.
  apply Forall_forall. intros [a b] H. split; [eapply P, in_combine_l, H|eapply Q, in_combine_r, H].
Qed.
