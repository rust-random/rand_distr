(* Proofs/MultiEvents.v — property C12 on the executable models of the four unit-geometry samplers (Model/Multi.v):
   the rejection stage is characterised completely.  An iteration that draws the candidate (x1, x2[, x3]) returns it
   (resp. its transform) exactly when the candidate passes the test of the code - x1^2+x2^2 <= 1 for the disc,
   < 1 and > 0 for the circle, < 1 for the sphere, x1^2+x2^2+x3^2 <= 1 for the ball - and otherwise behaves as the
   loop on the remaining words.  Hence the output is the first candidate of the stream inside the region: the
   conditional law of the uniform cube/square draw given the region (the uniformity of that conditional law is the
   classical fact not formalised: bridge B1-B4).                                                                  *)
From Coq Require Import Reals List Lra Bool.
From Interval Require Import Xreal.
From RD Require Import Base.Expr Base.Run Model.Sampler Model.Multi Proofs.LawsInvCdf Proofs.RunSound
  Proofs.MultiProofs.
Import ListNotations.
Open Scope Z_scope.
Open Scope sampler_scope.

Import ExprNotations.
Local Open Scope R_scope.

Definition sq2 (t : fty) (w1 w2 : Z) : R := u_pm1_R t w1 * u_pm1_R t w1 + u_pm1_R t w2 * u_pm1_R t w2.
Definition sq3 (t : fty) (w1 w2 w3 : Z) : R := sq2 t w1 w2 + u_pm1_R t w3 * u_pm1_R t w3.

Lemma sq3_eval t w1 w2 w3 :
  evalX (u_pm1 t w1 *. u_pm1 t w1 +. u_pm1 t w2 *. u_pm1 t w2 +. u_pm1 t w3 *. u_pm1 t w3) = Xreal (sq3 t w1 w2 w3).
Proof. cbn [evalX xbin]. rewrite !u_pm1_eval. reflexivity. Qed.
Lemma sq2_eval t w1 w2 : evalX (u_pm1 t w1 *. u_pm1 t w1 +. u_pm1 t w2 *. u_pm1 t w2) = Xreal (sq2 t w1 w2).
Proof. apply sq_sum_eval; apply u_pm1_eval. Qed.

(* one iteration: the loop on a word list that holds a candidate evaluates like the branch its test selects *)
Lemma unit_disc_step f t w1 w2 ws v :
  evals (unit_disc_loop (S f) t (w1 :: w2 :: ws)) v <->
  evals ((if rcmp CLe (sq2 t w1 w2) 1 then sret [u_pm1 t w1; u_pm1 t w2] else unit_disc_loop f t) ws) v.
Proof. exact (evals_Ask_iff _ _ _ _ _ _ v (sq2_eval t w1 w2) one_eval). Qed.
Lemma unit_ball_step f t w1 w2 w3 ws v :
  evals (unit_ball_loop (S f) t (w1 :: w2 :: w3 :: ws)) v <->
  evals ((if rcmp CLe (sq3 t w1 w2 w3) 1 then sret [u_pm1 t w1; u_pm1 t w2; u_pm1 t w3] else unit_ball_loop f t) ws) v.
Proof. exact (evals_Ask_iff _ _ _ _ _ _ v (sq3_eval t w1 w2 w3) one_eval). Qed.
Lemma unit_sphere_step f t w1 w2 ws v :
  evals (unit_sphere_loop (S f) t (w1 :: w2 :: ws)) v <->
  evals ((if rcmp CGe (sq2 t w1 w2) 1 then unit_sphere_loop f t else sret (sphere_out (u_pm1 t w1) (u_pm1 t w2))) ws) v.
Proof. exact (evals_Ask_iff _ _ _ _ _ _ v (sq2_eval t w1 w2) one_eval). Qed.
(* `sum < 1 && sum > 0`: the second test is made only when the first holds *)
Lemma unit_circle_step f t w1 w2 ws v :
  evals (unit_circle_loop (S f) t (w1 :: w2 :: ws)) v <->
  evals ((if rcmp CLt (sq2 t w1 w2) 1 && rcmp CGt (sq2 t w1 w2) 0
          then sret (circle_out (u_pm1 t w1) (u_pm1 t w2)) else unit_circle_loop f t) ws) v.
Proof.
  etransitivity; [exact (evals_Ask_iff _ _ _ _ _ _ v (sq2_eval t w1 w2) one_eval)|].
  destruct (rcmp CLt (sq2 t w1 w2) 1); [exact (evals_Ask_iff _ _ _ _ _ _ v (sq2_eval t w1 w2) (num_eval 0))|reflexivity].
Qed.

Theorem unit_disc_accepts f t w1 w2 ws : sq2 t w1 w2 <= 1 ->
  evals (unit_disc_loop (S f) t (w1 :: w2 :: ws)) ([u_pm1 t w1; u_pm1 t w2], ws).
Proof.
  intros H. apply unit_disc_step. unfold rcmp. destruct (Rle_dec (sq2 t w1 w2) 1); [constructor|contradiction].
Qed.
(* the two mid-range words give the point (0, 0), which is accepted *)
Theorem unit_disc_accepts_origin f t ws :
  evals (unit_disc_loop (S f) t (2 ^ 63 :: 2 ^ 63 :: ws)%Z) ([u_pm1 t (2 ^ 63)%Z; u_pm1 t (2 ^ 63)%Z], ws).
Proof.
  apply unit_disc_accepts. unfold sq2. replace (u_pm1_R t (2 ^ 63)) with 0; [lra|].
  destruct t; unfold u_pm1_R;
    [change (hi32 (2 ^ 63) / 2 ^ 9 - 2 ^ 22)%Z with 0%Z|change (2 ^ 63 / 2 ^ 12 - 2 ^ 51)%Z with 0%Z]; symmetry; apply Rmult_0_l.
Qed.
Theorem unit_disc_rejects f t w1 w2 ws v : 1 < sq2 t w1 w2 ->
  (evals (unit_disc_loop (S f) t (w1 :: w2 :: ws)) v <-> evals (unit_disc_loop f t ws) v).
Proof.
  intros H. rewrite unit_disc_step. unfold rcmp. destruct (Rle_dec (sq2 t w1 w2) 1); [lra|reflexivity].
Qed.

Theorem unit_ball_accepts f t w1 w2 w3 ws : sq3 t w1 w2 w3 <= 1 ->
  evals (unit_ball_loop (S f) t (w1 :: w2 :: w3 :: ws)) ([u_pm1 t w1; u_pm1 t w2; u_pm1 t w3], ws).
Proof.
  intros H. apply unit_ball_step. unfold rcmp. destruct (Rle_dec (sq3 t w1 w2 w3) 1); [constructor|contradiction].
Qed.
Theorem unit_ball_rejects f t w1 w2 w3 ws v : 1 < sq3 t w1 w2 w3 ->
  (evals (unit_ball_loop (S f) t (w1 :: w2 :: w3 :: ws)) v <-> evals (unit_ball_loop f t ws) v).
Proof.
  intros H. rewrite unit_ball_step. unfold rcmp. destruct (Rle_dec (sq3 t w1 w2 w3) 1); [lra|reflexivity].
Qed.

(* UnitSphere (Marsaglia): candidates with x1^2 + x2^2 < 1 *)
Theorem unit_sphere_accepts f t w1 w2 ws : sq2 t w1 w2 < 1 ->
  evals (unit_sphere_loop (S f) t (w1 :: w2 :: ws)) (sphere_out (u_pm1 t w1) (u_pm1 t w2), ws).
Proof.
  intros H. apply unit_sphere_step. unfold rcmp. destruct (Rle_dec 1 (sq2 t w1 w2)); [lra|constructor].
Qed.
Theorem unit_sphere_rejects f t w1 w2 ws v : 1 <= sq2 t w1 w2 ->
  (evals (unit_sphere_loop (S f) t (w1 :: w2 :: ws)) v <-> evals (unit_sphere_loop f t ws) v).
Proof.
  intros H. rewrite unit_sphere_step. unfold rcmp. destruct (Rle_dec 1 (sq2 t w1 w2)); [reflexivity|contradiction].
Qed.

(* UnitCircle (von Neumann): candidates with 0 < x1^2 + x2^2 < 1 (the origin is rejected: repair F18) *)
Theorem unit_circle_accepts f t w1 w2 ws : 0 < sq2 t w1 w2 < 1 ->
  evals (unit_circle_loop (S f) t (w1 :: w2 :: ws)) (circle_out (u_pm1 t w1) (u_pm1 t w2), ws).
Proof.
  intros H. apply unit_circle_step. unfold rcmp.
  destruct (Rlt_dec (sq2 t w1 w2) 1); [|lra]. destruct (Rlt_dec 0 (sq2 t w1 w2)); [constructor|lra].
Qed.
Theorem unit_circle_rejects f t w1 w2 ws v : (1 <= sq2 t w1 w2 \/ sq2 t w1 w2 <= 0) ->
  (evals (unit_circle_loop (S f) t (w1 :: w2 :: ws)) v <-> evals (unit_circle_loop f t ws) v).
Proof.
  intros H. rewrite unit_circle_step. unfold rcmp.
  destruct (Rlt_dec (sq2 t w1 w2) 1); [destruct (Rlt_dec 0 (sq2 t w1 w2)); [lra|]|]; reflexivity.
Qed.
