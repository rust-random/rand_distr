(* Proofs/FloatWeightsAlias.v — facts about the float WeightedAliasIndex model
   (Model/FloatWeights.v) that hold for ALL weight lists, generic in the format:
   complete characterisation of the result of `new` (alias_float_new_errors), including the
   absence of panics: the pairing loop terminates within its fuel and
   `Uniform::new(0.0, sum).unwrap()` succeeds because the clamped pairwise sum of accepted
   weights is a finite, strictly positive float and the `new_bounded` loop does not fire.   *)
From Coq Require Import List Bool Lia Reals Lra.
From Flocq Require Import Core.Core IEEE754.BinarySingleNaN.
From RD Require Import Model.Tree Model.FloatWeights.
From RD Require Import Proofs.FloatWeightsProofs Proofs.FloatWeightsOps.

Section Fmt.
Variable prec emax : Z.
Context (Hp : Prec_gt_0 prec) (Hpe : Prec_lt_emax prec emax).
Notation float := (BinarySingleNaN.binary_float prec emax).
Notation fzero := (fzero prec emax).
Notation fone := (fone prec emax Hp Hpe).
Notation fmaxv := (fmaxv prec emax Hp Hpe).
Notation fgt := (fgt prec emax).
Notation fle := (fle prec emax).
Notation feq := (feq prec emax).
Notation fadd := (fadd prec emax Hp Hpe).
Notation fbad_w := (fbad_w prec emax).
Notation fneg_strict := (fneg_strict prec emax).
Notation fclamp := (fclamp prec emax Hp Hpe).
Notation max_rand := (max_rand prec emax Hp Hpe).

Local Instance fexp_valid : Valid_exp (SpecFloat.fexp prec emax) := fexp_correct prec emax Hp.

Lemma fadd_notbad : forall x y : float, fbad_w x = false -> fbad_w y = false -> fbad_w (fadd x y) = false.
Proof.
  intros x y Hx Hy.
  destruct x as [sx|sx| |sx mx ex Bx]; destruct y as [sy|sy| |sy my ey By];
    try destruct sx; try destruct sy; try discriminate; try reflexivity.
  eapply rounded_notbad; [apply fadd_rounded; reflexivity|].
  pose proof (B2R_pos_finite mx ex Bx). pose proof (B2R_pos_finite my ey By). lra.
Qed.

Lemma fsum_seq_notbad : forall (l : list float) acc,
  fbad_w acc = false -> Forall (fun w => fbad_w w = false) l ->
  fbad_w (fold_left fadd l acc) = false.
Proof.
  induction l; intros acc Ha Hl; simpl; auto.
  inversion Hl; subst. apply IHl; auto. apply fadd_notbad; auto.
Qed.

Lemma pairwise_sum_notbad : forall fuel (l : list float),
  Forall (fun w => fbad_w w = false) l -> fbad_w (pairwise_sum prec emax Hp Hpe fuel l) = false.
Proof.
  induction fuel; intros l H; simpl.
  - apply fsum_seq_notbad; auto.
  - destruct (length l <=? 32)%nat; [apply fsum_seq_notbad; auto|].
    rewrite <- (firstn_skipn (length l / 2) l), Forall_app in H.
    apply fadd_notbad; apply IHfuel; apply H.
Qed.

(* `if x > MAX { MAX } else { x }` of such a value is finite and, unless it compares equal to
   0, strictly positive *)
Lemma fclamp_pos : forall x : float, fbad_w x = false -> feq (fclamp x) fzero = false ->
  exists m e B, fclamp x = B754_finite false m e B.
Proof.
  intros x Hx. unfold FloatWeights.fclamp.
  destruct x as [s|[|]| |[|] m e B]; try discriminate Hx.
  - intros H. destruct (fgt _ _); [eexists _, _, _; reflexivity | discriminate H].
  - change (fgt (B754_infinity false) fmaxv) with true. eexists _, _, _; reflexivity.
  - destruct (fgt _ _); eexists _, _, _; reflexivity.
Qed.

Lemma max_rand_facts : is_finite max_rand = true /\ (0 <= B2R max_rand <= 1)%R.
Proof.
  destruct one_facts as [F1 E1]. rewrite <- E1.
  assert (Fe : is_finite (fepsilon prec emax Hp Hpe) = true /\
               (0 <= B2R (fepsilon prec emax Hp Hpe) <= B2R fone)%R).
  { eapply rounded_bounded; [apply fdy_rounded|].
    rewrite F2R_bpow, E1. split; [apply bpow_ge_0|].
    change 1%R with (bpow radix2 0). apply bpow_le. unfold Prec_gt_0 in Hp. lia. }
  eapply rounded_bounded; [apply fsub_rounded; [exact F1 | apply Fe]|]. lra.
Qed.

(* the `new_bounded` loop does not fire: S * max_rand + 0.0 stays in [0, S] *)
Lemma new_bounded_zero_low : forall fuel m e B,
  let S0 := (B754_finite false m e B : float) in
  new_bounded prec emax Hp Hpe (S fuel) fzero S0 S0 = Some S0.
Proof.
  intros fuel m e B S0. destruct max_rand_facts as [Fm M].
  pose proof (B2R_pos_finite m e B) as PS. fold S0 in PS.
  destruct (rounded_bounded _ _ _ S0 (fmul_rounded S0 max_rand eq_refl Fm))
    as [Fp Bp]; [nra|].
  destruct (rounded_bounded _ _ _ S0 (fadd_rounded _ fzero Fp eq_refl))
    as [Fq Bq]; [simpl (B2R fzero); lra|].
  cbn [new_bounded]. rewrite fgt_flt, flt_finite, Rlt_bool_false by (assumption || reflexivity || apply Bq).
  reflexivity.
Qed.

(* Uniform::new(0.0, S) for a finite positive S is {low = 0.0, scale = S} *)
Lemma uniform_new_zero_low : forall m e B,
  let S := (B754_finite false m e B : float) in
  uniform_new prec emax Hp Hpe fzero S = Some (fzero, S).
Proof.
  intros m e B S. unfold uniform_new.
  change (FloatWeights.fsub prec emax Hp Hpe S fzero) with S. cbv zeta. subst S.
  rewrite (new_bounded_zero_low 63). reflexivity.
Qed.

Notation fast := (fast prec emax).
Notation fclassify := (fclassify prec emax).
Notation fpair_loop := (fpair_loop prec emax Hp Hpe).
Definition fcount (s : fast) : nat := (length (fsmalls prec emax s) + length (fbigs prec emax s))%nat.
(* the lengths of no_alias_odds and aliases, which no step of the construction changes *)
Definition fshape (s : fast) : nat * nat := (length (fodds prec emax s), length (fal prec emax s)).

Lemma setz_length : forall l i v, length (setz l i v) = length l.
Proof. induction l; intros [|i] v; simpl; auto. Qed.

Lemma fclassify_facts : forall SS (s : fast) i,
  fcount (fclassify SS s i) = Datatypes.S (fcount s) /\ fshape (fclassify SS s i) = fshape s.
Proof.
  intros SS s i. unfold FloatWeights.fclassify, fcount, fshape.
  destruct (FloatWeights.flt _ _ _ _); simpl; rewrite setz_length; auto.
Qed.

Lemma fold_classify_facts : forall SS l (s : fast),
  fcount (fold_left (fclassify SS) l s) = (length l + fcount s)%nat /\
  fshape (fold_left (fclassify SS) l s) = fshape s.
Proof.
  induction l; intros s; simpl; auto.
  destruct (IHl (fclassify SS s a)) as [-> ->]. destruct (fclassify_facts SS s a) as [-> ->].
  split; [lia | reflexivity].
Qed.

(* the pairing loop terminates within its fuel: each iteration pops a small and a big and pushes
   one index back *)
Lemma fpair_loop_ok : forall fuel SS (s : fast), (fcount s <= fuel)%nat ->
  exists s', fpair_loop fuel SS s = Some s' /\ fshape s' = fshape s.
Proof.
  induction fuel; intros SS [o a sm bg] H; unfold fcount in H; simpl in H.
  - destruct sm, bg; simpl in H; try lia; simpl; eauto.
  - destruct sm as [|s0 sr]; [simpl; eauto|]. destruct bg as [|b br]; [simpl; eauto|].
    simpl in H. cbn [FloatWeights.fpair_loop fsmalls fbigs fodds fal].
    set (s1 := {| fodds := _ |}).
    destruct (fclassify_facts SS s1 b) as [A B].
    destruct (IHfuel SS (fclassify SS s1 b)) as [s' [E L]].
    { rewrite A. unfold fcount. simpl. lia. }
    exists s'. split; [exact E|].
    rewrite L, B. unfold fshape, seto. simpl. rewrite fupd_length, setz_length. reflexivity.
Qed.

Lemma fdrain_shape : forall SS (s : fast), fshape (fdrain prec emax SS s) = fshape s.
Proof.
  intros SS s. unfold fdrain, fshape, seto. simpl.
  rewrite 2 fold_left_length by (intros; apply fupd_length). reflexivity.
Qed.

Notation falias_maxw := (falias_maxw prec emax Hp Hpe).
Notation falias_sum := (falias_sum prec emax Hp Hpe).
Notation falias_new := (falias_new prec emax Hp Hpe).
Notation falias_wok := (falias_wok prec emax).

Lemma wok_false_iff : forall mw w : float,
  falias_wok mw w = false <->
  (is_nan w = true \/ fneg_strict w = true \/ fle w mw = false).
Proof.
  intros mw w. unfold FloatWeights.falias_wok. rewrite fle_zero_spec. unfold FloatWeightsProofs.fbad_w.
  destruct (is_nan w), (fneg_strict w), (fle w mw); simpl; intuition discriminate.
Qed.

Lemma falias_sum_pos : forall (mw : float) ws,
  forallb (falias_wok mw) ws = true -> feq (falias_sum ws) fzero = false ->
  exists m e B, falias_sum ws = B754_finite false m e B.
Proof.
  intros mw ws V. rewrite forallb_forall in V. apply fclamp_pos.
  apply pairwise_sum_notbad, Forall_forall. intros w Hi. apply V in Hi.
  unfold FloatWeights.falias_wok in Hi. rewrite fle_zero_spec in Hi.
  destruct (fbad_w w); [discriminate | reflexivity].
Qed.

(* `new` by cases on its three tests; no panic: the pairing loop has enough fuel and
   Uniform::new(0.0, sum).unwrap() succeeds *)
Lemma falias_new_spec : forall ws : list float,
  let n := Z.of_nat (length ws) in
  if ((n =? 0) || (FSENT <? n))%Z then falias_new ws = Err InvalidInput else
  if forallb (falias_wok (falias_maxw ws)) ws then
    if feq (falias_sum ws) fzero then falias_new ws = Err InsufficientNonZero else
    exists t, falias_new ws = Ok t /\
              length (ft_al prec emax t) = length ws /\ length (ft_odds prec emax t) = length ws /\
              ft_sum prec emax t = falias_sum ws /\
              ft_unif prec emax t = (fzero, falias_sum ws)
  else falias_new ws = Err InvalidWeight.
Proof.
  intros ws n. unfold FloatWeights.falias_new. fold n.
  destruct ((n =? 0) || (FSENT <? n))%Z; [reflexivity|].
  destruct (forallb _ ws) eqn:EW; [|reflexivity]. simpl negb. cbv iota.
  destruct (feq (falias_sum ws) fzero) eqn:EZ; [reflexivity|].
  set (s0 := {| fodds := _ |}).
  destruct (fold_classify_facts (falias_sum ws) (seq 0 (length ws)) s0) as [C1 C2].
  rewrite seq_length in C1.
  destruct (fpair_loop_ok (length ws) (falias_sum ws) _ ltac:(rewrite C1; unfold fcount; simpl; lia))
    as [s2 [-> L]].
  replace (uniform_new prec emax Hp Hpe fzero (falias_sum ws)) with (Some (fzero, falias_sum ws))
    by (destruct (falias_sum_pos _ _ EW EZ) as [m [e [B ->]]]; symmetry; apply uniform_new_zero_low).
  assert (D : fshape (fdrain prec emax (falias_sum ws) s2) = (length ws, length ws)).
  { rewrite fdrain_shape, L, C2. unfold fshape, s0. simpl. rewrite !map_length. reflexivity. }
  eexists. split; [reflexivity|]. cbn [ft_al ft_odds ft_sum ft_unif].
  split; [exact (f_equal snd D) | split; [exact (f_equal fst D) | auto]].
Qed.

Theorem alias_float_new_errors : forall ws : list float,
  let n := Z.of_nat (length ws) in
  let bad_len := (n = 0 \/ n > 4294967295)%Z in
  let bad_w := exists w, In w ws /\
     (is_nan w = true \/ fneg_strict w = true \/ fle w (falias_maxw ws) = false) in
  let zero_sum := feq (falias_sum ws) fzero = true in
  (bad_len -> falias_new ws = Err InvalidInput) /\
  (~ bad_len -> bad_w -> falias_new ws = Err InvalidWeight) /\
  (~ bad_len -> ~ bad_w -> zero_sum -> falias_new ws = Err InsufficientNonZero) /\
  (~ bad_len -> ~ bad_w -> ~ zero_sum ->
     exists t, falias_new ws = Ok t /\
               length (ft_al prec emax t) = length ws /\ length (ft_odds prec emax t) = length ws /\
               ft_sum prec emax t = falias_sum ws /\
               ft_unif prec emax t = (fzero, falias_sum ws)).
Proof.
  intros ws n bad_len bad_w zero_sum.
  assert (BL : bad_len <-> ((n =? 0) || (FSENT <? n))%Z = true).
  { unfold bad_len, FSENT. rewrite orb_true_iff, Z.eqb_eq, Z.ltb_lt. lia. }
  assert (BW : bad_w <-> forallb (falias_wok (falias_maxw ws)) ws = false).
  { unfold bad_w. rewrite forallb_false_ex. split; intros [w [Hi Hw]]; exists w; split; auto;
      apply wok_false_iff; auto. }
  pose proof (falias_new_spec ws) as S. cbv zeta in S. fold n in S. unfold zero_sum.
  destruct ((n =? 0) || (FSENT <? n))%Z; [intuition congruence|].
  destruct (forallb _ ws); [|intuition congruence].
  destruct (feq (falias_sum ws) fzero); intuition congruence.
Qed.

Theorem alias_float_sum_pos : forall (ws : list float) t,
  falias_new ws = Ok t ->
  is_finite (ft_sum prec emax t) = true /\ (0 < B2R (ft_sum prec emax t))%R.
Proof.
  intros ws t H. pose proof (falias_new_spec ws) as S. cbv zeta in S.
  destruct (_ || _)%Z; [congruence|].
  destruct (forallb _ ws) eqn:EW; [|congruence].
  destruct (feq _ fzero) eqn:EZ; [congruence|].
  destruct S as [t' [E [_ [_ [ES _]]]]]. rewrite E in H. injection H as <-. rewrite ES.
  destruct (falias_sum_pos _ _ EW EZ) as [m [e [B ->]]].
  split; [reflexivity | apply B2R_pos_finite].
Qed.

Notation falias_nconv := (falias_nconv prec emax Hp Hpe).

(* n as f is finite and >= 1: n <= 2^32, which is in the format and below 2^emax *)
Lemma falias_nconv_ge_one : forall ws : list float,
  (32 < emax)%Z -> (0 < length ws)%nat -> (Z.of_nat (length ws) <= 4294967295)%Z ->
  is_finite (falias_nconv ws) = true /\ (1 <= B2R (falias_nconv ws))%R.
Proof.
  intros ws He Hn0 Hn. unfold FloatWeights.falias_nconv. set (n := Z.of_nat (length ws)) in *.
  pose proof (fdy_rounded n 0) as R.
  replace (F2R (Float radix2 n 0)) with (IZR n) in R by (unfold F2R; simpl; ring).
  assert (L : (1 <= IZR n)%R) by (apply IZR_le; lia).
  destruct (rounded_finite _ _ _ (bpow radix2 32) R) as [F E].
  - apply generic_format_bpow. unfold SpecFloat.fexp, SpecFloat.emin.
    unfold Prec_gt_0 in Hp. lia.
  - apply bpow_lt, He.
  - rewrite Rabs_pos_eq by lra. change (bpow radix2 32) with (IZR 4294967296).
    apply IZR_le. lia.
  - split; [exact F|]. rewrite E, <- (proj2 one_facts) in *. apply rnd_ge, L.
Qed.

(* max_weight_size = MAX / (n as f) is finite; meaning of `w <= max_weight_size` *)
Theorem alias_float_maxw : forall (ws : list float) (w : float),
  (32 < emax)%Z -> (0 < length ws)%nat -> (Z.of_nat (length ws) <= 4294967295)%Z ->
  is_finite (falias_maxw ws) = true /\
  (is_finite w = true ->
     (fle w (falias_maxw ws) = true <-> (B2R w <= B2R (falias_maxw ws))%R)) /\
  fle (B754_infinity false) (falias_maxw ws) = false.
Proof.
  intros ws w He Hn0 Hn. destruct (falias_nconv_ge_one ws He Hn0 Hn) as [NF N1].
  assert (MW : is_finite (falias_maxw ws) = true).
  { pose proof (notbad_B2R fmaxv eq_refl) as M0.
    eapply (rounded_bounded _ _ _ fmaxv); [apply fdiv_rounded; [reflexivity | lra]|].
    assert (I : (0 < / B2R (falias_nconv ws) <= 1)%R).
    { split; [apply Rinv_0_lt_compat; lra|]. rewrite <- Rinv_1. apply Rinv_le_contravar; lra. }
    unfold Rdiv. nra. }
  split; [exact MW|]. split.
  - intros Fw. rewrite (fle_finite w _ Fw MW).
    destruct (Rle_bool_spec (B2R w) (B2R (falias_maxw ws))); split; intros; auto; [discriminate | lra].
  - destruct (falias_maxw ws) as [s|s| |s m e B]; try discriminate; reflexivity.
Qed.

End Fmt.
