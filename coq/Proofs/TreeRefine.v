(* Proofs/TreeRefine.v — every reachable state refines the plain weight list and
   equals a fresh build of it.  Stdlib only; axiom-free.                         *)
From Coq Require Import ZArith List Bool Lia.
From RD Require Import Model.Tree Proofs.TreeBasics Proofs.TreeOps.
Import ListNotations.
Open Scope Z_scope.

Lemma abs_length t : length (abs t) = length t.
Proof. unfold abs. now rewrite map_length, seq_length. Qed.

Lemma inv_of_rep ty w t : Rep w t -> Nonneg w -> zsum w <= whi ty -> Inv ty t.
Proof. intros. exists w. auto. Qed.

Lemma spec_no_panic ty w o : snd (spec_step ty w o) <> OutPanic.
Proof. destruct o as [x| |i x]; cbn [spec_step].
  - destruct (x <? 0); [discriminate|]. destruct (_ && _); discriminate.
  - destruct (rev w); discriminate.
  - destruct (x <? 0); [discriminate|]. destruct (_ <? _); discriminate.
Qed.

(* the structure follows the specification step by step, and the specification keeps
   the weights non-negative and their total in the type *)
Lemma step_sim ty w t o : wf_ty ty -> Rep w t -> Nonneg w -> zsum w <= whi ty -> op_ok ty t o ->
  let (w', out) := spec_step ty w o in
  exists t', step ty t o = (t', out) /\ Rep w' t' /\ Nonneg w' /\ zsum w' <= whi ty.
Proof.
  intros WF R N HS OK. pose proof R as [L _]. destruct o as [x| |i x]; cbn [step spec_step op_ok] in *.
  - destruct (Z.ltb_spec x 0). { rewrite push_err_weight by assumption. eauto 6. }
    rewrite (rep_is_empty w t R). pose proof (push_spec ty w t WF R N HS x ltac:(lia)) as P.
    destruct (negb _ && _) eqn:Ov; [rewrite P; eauto 6|]. destruct P as [t' [-> R']].
    refine (ex_intro _ t' (conj eq_refl (conj R' (conj (nonneg_app w x N H) _)))). rewrite zsum_snoc.
    destruct w, t; try discriminate L; [change (zsum []) with 0; lia|]. apply Z.ltb_ge in Ov. lia.
  - destruct t as [|t0 tr _] using rev_ind.
    + destruct w; [cbn; eauto 6|discriminate L].
    + destruct w as [|w0 wr _] using rev_ind; [rewrite app_length in L; simpl in L; lia|].
      destruct (pop_ok ty wr tr w0 t0 WF R N HS) as [t' [-> R']]. rewrite rev_unit, rev_involutive.
      rewrite zsum_snoc in HS. destruct (nonneg_unapp wr w0 N) as [H0 Nr].
      refine (ex_intro _ t' (conj eq_refl (conj R' (conj Nr _)))). lia.
  - destruct OK as [Hi _]. destruct (Z.ltb_spec x 0). { rewrite update_err_weight by assumption. eauto 6. }
    pose proof (update_spec ty w t WF R N HS i x Hi H) as U.
    destruct (Z.ltb_spec (whi ty) (zsum w - nthz w i + x)); [rewrite U; eauto 6|]. destruct U as [t' [-> R']].
    refine (ex_intro _ t' (conj eq_refl (conj R' (conj (nthz_upd_all (Z.le 0) w i x N H) _)))).
    rewrite zsum_upd; lia.
Qed.

Theorem step_refines ty t o : wf_ty ty -> Inv ty t -> op_ok ty t o ->
  spec_step ty (abs t) o = (abs (fst (step ty t o)), snd (step ty t o)) /\
  Inv ty (fst (step ty t o)) /\ snd (step ty t o) <> OutPanic.
Proof.
  intros WF [w [R [N HS]]] OK. rewrite (rep_abs w t R).
  pose proof (step_sim ty w t o WF R N HS OK) as H. pose proof (spec_no_panic ty w o) as NP.
  destruct (spec_step ty w o) as [w' out]. destruct H as [t' [-> [R' [N' HS']]]]. cbn [fst snd].
  rewrite (rep_abs w' t' R'). split; [reflexivity|]. split; [now exists w'|exact NP].
Qed.

Theorem step_error_atomic ty t o e : snd (step ty t o) = OutErr e -> fst (step ty t o) = t.
Proof. destruct o; cbn [step].
  - destruct (tree_push ty t w); cbn; auto; discriminate.
  - destruct (tree_pop ty t) as [[? ?]| |]; cbn; auto; discriminate.
  - destruct (tree_update ty t i w); cbn; auto; discriminate.
Qed.

(* the `==` claim: a reachable state IS the fresh build of its weight list *)
Theorem inv_eq_fresh ty t : wf_ty ty -> Inv ty t -> tree_new ty (abs t) = Ok t.
Proof.
  intros WF [w [R [N HS]]]. rewrite (rep_abs w t R).
  assert (IR : InRange ty w).
  { intros i. pose proof (rep_chain w t 0 i i R N (anc_refl 0 i)). lia. }
  pose proof (tree_new_spec ty w WF IR) as H.
  destruct (tree_new ty w) as [t2|[]|]; try contradiction; [|lia].
  destruct H as [_ [_ R2]]. f_equal. exact (rep_unique w t2 t R2 R).
Qed.

Theorem inv_observers ty t : wf_ty ty -> Inv ty t ->
  tree_len t = Z.of_nat (length (abs t)) /\
  tree_is_empty t = tree_is_empty (abs t) /\
  (forall i, (i < length t)%nat -> get_chk ty t i = Ok (nthz (abs t) i)) /\
  tree_is_valid t = (0 <? zsum (abs t)).
Proof.
  intros WF [w [R [N HS]]]. rewrite (rep_abs w t R). pose proof R as [L _].
  split; [unfold tree_len; lia|]. split; [symmetry; now apply rep_is_empty|].
  split; [intros; now apply get_chk_ok|].
  destruct t as [|r tr]; [destruct w; [reflexivity|discriminate L]|].
  now rewrite (rep_root w r tr R) at 1.
Qed.

Theorem history_refines ty : wf_ty ty -> forall ops t, Inv ty t -> ops_ok ty t ops ->
  Inv ty (run ty t ops) /\
  abs (run ty t ops) = spec_run ty (abs t) ops /\
  outs ty t ops = spec_outs ty (abs t) ops /\
  ~ In OutPanic (outs ty t ops).
Proof.
  intros WF. induction ops as [|o r IH]; intros t I OK.
  - cbn. auto.
  - destruct OK as [OK1 OKr].
    destruct (step_refines ty t o WF I OK1) as [E [I' NP]].
    specialize (IH _ I' OKr). destruct IH as [IH1 [IH2 [IH3 IH4]]].
    unfold run, spec_run in *. cbn [fold_left outs spec_outs]. rewrite E. cbn [fst snd].
    repeat split; auto.
    + now rewrite IH3.
    + intros [H|H]; [now apply NP|now apply IH4].
Qed.

Theorem history_eq_fresh ty ws t0 ops : wf_ty ty -> InRange ty ws ->
  tree_new ty ws = Ok t0 -> ops_ok ty t0 ops ->
  tree_new ty (abs (run ty t0 ops)) = Ok (run ty t0 ops).
Proof.
  intros WF IR E OK. pose proof (tree_new_spec ty ws WF IR) as H. rewrite E in H.
  destruct H as [N [HS R]].
  apply inv_eq_fresh; auto. apply history_refines; auto. exists ws. auto.
Qed.

Lemma ops_okb_sound ty : forall ops t, ops_okb ty t ops = true -> ops_ok ty t ops.
Proof. induction ops as [|o r IH]; intros t H; cbn [ops_okb ops_ok] in *; auto.
  apply andb_true_iff in H. destruct H as [H1 H2]. split; [|now apply IH].
  destruct o; cbn [op_okb op_ok] in *; auto.
  - now apply inr_spec.
  - apply andb_true_iff in H1. destruct H1 as [Ha Hb]. split; [now apply Nat.ltb_lt|now apply inr_spec].
Qed.
