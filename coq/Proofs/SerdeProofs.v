(* C15 proofs: derive(Serialize, Deserialize) round-trips through a
   self-describing document for every well-formed type description. *)
From Coq Require Import String ZArith List Bool.
From RD Require Import Model.Serde.
Import ListNotations.
Open Scope Z_scope.

Lemma mem_str_In s l : mem_str s l = true <-> In s l.
Proof.
  induction l as [|x r IH]; simpl.
  - split; [discriminate | contradiction].
  - rewrite orb_true_iff, IH, String.eqb_eq. split; intros [H|H]; auto.
Qed.

Lemma nodupb_NoDup l : nodupb l = true -> NoDup l.
Proof.
  induction l as [|x r IH]; simpl; intros H.
  - constructor.
  - apply andb_true_iff in H as [H1 H2]. constructor; auto.
    intros HI. apply mem_str_In in HI. rewrite HI in H1. discriminate.
Qed.

Lemma NoDup_nodupb l : NoDup l -> nodupb l = true.
Proof.
  induction 1 as [|x r Hn _ IH]; simpl; auto.
  rewrite IH, andb_true_r. destruct (mem_str x r) eqn:E; auto.
  apply mem_str_In in E. contradiction.
Qed.

Lemma entries_for_notin {X} (m : list (string * X)) k :
  ~ In k (map fst m) -> entries_for k m = [].
Proof.
  induction m as [|[k' x'] m IH]; simpl; intros HN; auto.
  destruct (String.eqb_spec k k') as [->|_]; [|now auto].
  exfalso. apply HN. now left.
Qed.

Lemma entries_for_unique {X} (m : list (string * X)) k x :
  NoDup (map fst m) -> In (k, x) m -> entries_for k m = [(k, x)].
Proof.
  induction m as [|[k' x'] m IH]; simpl; intros ND HI; [contradiction|].
  inversion ND as [|? ? Hn ND']; subst. destruct HI as [E|HI].
  - inversion E; subst. rewrite String.eqb_refl. f_equal.
    apply entries_for_notin. exact Hn.
  - destruct (String.eqb_spec k k') as [->|_]; [|now auto].
    exfalso. apply Hn. exact (in_map fst _ _ HI).
Qed.

(* with_variant = lookup, then continue *)
Definition find_variant {A} (name : string) (vars : list (string * A)) : option A :=
  with_variant name (@Some A) None vars.

Lemma with_variant_find {A C} name (k : A -> C) dflt vars :
  with_variant name k dflt vars =
  match find_variant name vars with Some sh => k sh | None => dflt end.
Proof.
  unfold find_variant. induction vars as [|nv r IH]; simpl; auto.
  destruct (String.eqb name (fst nv)); auto.
Qed.

Lemma find_variant_In {A} name (vars : list (string * A)) sh :
  find_variant name vars = Some sh -> In (name, sh) vars.
Proof.
  unfold find_variant. induction vars as [|[n s] r IH]; simpl; [discriminate|].
  destruct (String.eqb_spec name n) as [->|_]; [|now auto].
  intros [= ->]. now left.
Qed.

(* The payload of a variant is typed, written and read as the unit struct, newtype
   struct, tuple struct or struct with the same contents would be (the name of a
   struct plays no part in any of that), so every fact about descriptions covers
   the shapes as well. *)
Definition shape_desc (s : vshape) : tydesc :=
  match s with
  | VUnit => TUnitStruct ""
  | VNewtype t => TNewtype "" t
  | VTuple ts => TTupleStruct "" ts
  | VStruct fs => TStruct "" fs
  end.

Lemma wf_shape_desc s : wf_shape s = wf (shape_desc s).
Proof. destruct s; reflexivity. Qed.

Lemma tydesc_shape_ind (P : tydesc -> Prop) :
  (forall w, P (TFloat w)) -> (forall s b, P (TInt s b)) -> P TBool ->
  (forall n, P (TUnitStruct n)) ->
  (forall n fs, Forall (fun ft => P (snd ft)) fs -> P (TStruct n fs)) ->
  (forall n t, P t -> P (TNewtype n t)) ->
  (forall n ts, Forall P ts -> P (TTupleStruct n ts)) ->
  (forall n vars, Forall (fun nv => P (shape_desc (snd nv))) vars -> P (TEnum n vars)) ->
  (forall t, P t -> P (TSeq t)) ->
  forall d, P d.
Proof.
  intros HF HI HB HU HS HN HT HE HQ.
  exact (proj1 (tydesc_mutind' P (fun s => P (shape_desc s))
                  HF HI HB HU HS HN HT HE HQ (HU _) (HN _) (HT _) (HS _))).
Qed.

(* Unfolding equations for enums: the variant is looked up, then its shape decides *)
Lemma encode_enum n vars name p :
  encode (TEnum n vars) (VVariant name p) =
  match find_variant name vars with
  | Some VUnit => DStr name
  | Some sh => DMap [(name, encode (shape_desc sh) p)]
  | None => DNull
  end.
Proof.
  simpl. rewrite with_variant_find. now destruct (find_variant name vars) as [[]|].
Qed.

Lemma has_type_enum n vars name p :
  has_typeb (TEnum n vars) (VVariant name p) =
  match find_variant name vars with
  | Some sh => has_typeb (shape_desc sh) p
  | None => false
  end.
Proof.
  simpl. rewrite with_variant_find. now destruct (find_variant name vars) as [[]|].
Qed.

Lemma decode_enum_str n vars s :
  decode (TEnum n vars) (DStr s) =
  match find_variant s vars with
  | Some VUnit => Some (VVariant s VUnitv)
  | _ => None
  end.
Proof.
  simpl. rewrite with_variant_find. now destruct (find_variant s vars) as [[]|].
Qed.

Lemma decode_enum_map n vars s y :
  decode (TEnum n vars) (DMap [(s, y)]) =
  match find_variant s vars with
  | Some sh => option_map (VVariant s) (decode (shape_desc sh) y)
  | None => None
  end.
Proof.
  simpl. rewrite with_variant_find. now destruct (find_variant s vars) as [[]|].
Qed.

Definition enc_fields (fs : list (string * tydesc)) (vs : list (string * value)) :=
  zipw (fun ft fv => (fst ft, encode (snd ft) (snd fv))) fs vs.
Definition dec_fields (fs : list (string * tydesc)) (m : list (string * doc)) :=
  opt_map (fun ft => dec_field (decode (snd ft)) (fst ft) m) fs.
Definition type_fields (fs : list (string * tydesc)) (vs : list (string * value)) :=
  all2 (fun ft fv => String.eqb (fst ft) (fst fv) && has_typeb (snd ft) (snd fv)) fs vs.

Lemma all2_length {A B} (p : A -> B -> bool) l l' :
  all2 p l l' = true -> length l = length l'.
Proof.
  revert l'. induction l as [|a r IH]; destruct l' as [|b r']; simpl; try discriminate; auto.
  intros [_ H]%andb_true_iff. f_equal. auto.
Qed.

Lemma zipw_map_fst {A B} (g : string * A -> B -> doc) (fs : list (string * A)) (vs : list B) :
  length fs = length vs ->
  map fst (zipw (fun ft fv => (fst ft, g ft fv)) fs vs) = map fst fs.
Proof.
  revert vs. induction fs as [|ft r IH]; destruct vs as [|fv r']; simpl; try discriminate; auto.
  intros [= H]. f_equal. auto.
Qed.

Definition RT (d : tydesc) : Prop :=
  wf d = true -> forall v, has_typeb d v = true -> finite_floatsb v = true ->
  decode d (encode d v) = Some v.

Lemma tuple_roundtrip ts : Forall RT ts -> forallb wf ts = true ->
  forall vs, all2 has_typeb ts vs = true -> forallb finite_floatsb vs = true ->
  opt_zip decode ts (zipw encode ts vs) = Some vs.
Proof.
  induction 1 as [|t r Ht _ IH]; intros Hwf [|v vs]; simpl in *; try discriminate; auto.
  apply andb_true_iff in Hwf as [W1 W2].
  intros [T1 T2]%andb_true_iff [F1 F2]%andb_true_iff.
  now rewrite (Ht W1 v T1 F1), (IH W2 vs T2 F2).
Qed.

Lemma seq_roundtrip t : RT t -> wf t = true ->
  forall vs, forallb (has_typeb t) vs = true -> forallb finite_floatsb vs = true ->
  opt_map (decode t) (map (encode t) vs) = Some vs.
Proof.
  intros Ht W. induction vs as [|v vs IH]; simpl; auto.
  intros [T1 T2]%andb_true_iff [F1 F2]%andb_true_iff.
  now rewrite (Ht W v T1 F1), (IH T2 F2).
Qed.

(* Each field is looked up in the whole map, so the map stays fixed while the
   induction runs over the fields whose entries it contains. *)
Lemma fields_roundtrip_in fs : Forall (fun ft => RT (snd ft)) fs ->
  forallb (fun ft => wf (snd ft)) fs = true ->
  forall vs m, NoDup (map fst m) -> type_fields fs vs = true ->
  forallb (fun fv => finite_floatsb (snd fv)) vs = true ->
  incl (enc_fields fs vs) m -> dec_fields fs m = Some vs.
Proof.
  unfold type_fields, enc_fields, dec_fields.
  induction 1 as [|ft r Ht _ IH]; intros Hwf [|[k v] vs] m ND; simpl in *;
    try discriminate; auto.
  apply andb_true_iff in Hwf as [W1 W2].
  intros [[T0%String.eqb_eq T1]%andb_true_iff T2]%andb_true_iff [F1 F2]%andb_true_iff Hincl.
  unfold dec_field at 1.
  rewrite (entries_for_unique m _ _ ND (Hincl _ (or_introl eq_refl))). simpl.
  rewrite (Ht W1 v T1 F1), (IH W2 vs m ND T2 F2), T0; [reflexivity|].
  intros e He. apply Hincl. now right.
Qed.

Lemma fields_roundtrip fs : Forall (fun ft => RT (snd ft)) fs ->
  nodupb (map fst fs) = true ->
  forallb (fun ft => wf (snd ft)) fs = true ->
  forall vs, type_fields fs vs = true ->
  forallb (fun fv => finite_floatsb (snd fv)) vs = true ->
  dec_fields fs (enc_fields fs vs) = Some vs.
Proof.
  intros HR ND W vs HT HF.
  apply fields_roundtrip_in; auto using incl_refl.
  unfold enc_fields. rewrite zipw_map_fst by exact (all2_length _ _ _ HT).
  now apply nodupb_NoDup.
Qed.

Theorem roundtrip : forall d, wf d = true -> forall v, has_type d v -> finite_floats v ->
  decode d (encode d v) = Some v.
Proof.
  change (forall d, RT d). apply tydesc_shape_ind.
  - (* TFloat *)
    intros w _ [] HT HF; try discriminate. simpl in *.
    apply andb_true_iff in HT as [[E%Z.eqb_eq FW]%andb_true_iff R]. subst width.
    rewrite HF. cbn [decode]. rewrite FW, R, HF. reflexivity.
  - (* TInt *)
    intros s b _ [] HT _; try discriminate. simpl in *. rewrite HT. reflexivity.
  - (* TBool *)
    intros _ [] HT _; try discriminate. reflexivity.
  - (* TUnitStruct *)
    intros n _ [] HT _; try discriminate. reflexivity.
  - (* TStruct *)
    intros n fs IH [ND W]%andb_true_iff [] HT HF; try discriminate.
    exact (f_equal (option_map VRecord) (fields_roundtrip fs IH ND W fields HT HF)).
  - (* TNewtype *)
    intros n t IH. exact IH.
  - (* TTupleStruct *)
    intros n ts IH W [] HT HF; try discriminate.
    exact (f_equal (option_map VTup) (tuple_roundtrip ts IH W vs HT HF)).
  - (* TEnum *)
    intros n vars IH [_ W]%andb_true_iff [] HT HF; try discriminate.
    rewrite has_type_enum in HT. rewrite encode_enum.
    destruct (find_variant name vars) as [sh|] eqn:EF; [|discriminate].
    pose proof (find_variant_In _ _ _ EF) as HI.
    rewrite Forall_forall in IH. rewrite forallb_forall in W.
    specialize (IH _ HI). specialize (W _ HI). simpl in IH, W, HF.
    rewrite wf_shape_desc in W. specialize (IH W payload HT HF).
    destruct sh; [|rewrite decode_enum_map, EF, IH; reflexivity..].
    rewrite decode_enum_str, EF. destruct payload; try discriminate. reflexivity.
  - (* TSeq *)
    intros t IH W [] HT HF; try discriminate.
    exact (f_equal (option_map VList) (seq_roundtrip t IH W vs HT HF)).
Qed.

Corollary encode_injective : forall d, wf d = true -> forall v1 v2,
  has_type d v1 -> finite_floats v1 -> has_type d v2 -> finite_floats v2 ->
  encode d v1 = encode d v2 -> v1 = v2.
Proof.
  intros d W v1 v2 T1 F1 T2 F2 E.
  pose proof (roundtrip d W v1 T1 F1) as R1.
  rewrite E, (roundtrip d W v2 T2 F2) in R1. now inversion R1.
Qed.

(* non-finite floats are written as null and do NOT round-trip *)
Lemma nonfinite_not_roundtrip w p :
  has_type (TFloat w) (VFloat w p) -> finite_pattern w p = false ->
  encode (TFloat w) (VFloat w p) = DNull /\ decode (TFloat w) (encode (TFloat w) (VFloat w p)) = None.
Proof. intros _ H. simpl. rewrite H. split; reflexivity. Qed.

Definition DT (d : tydesc) : Prop :=
  forall x v, decode d x = Some v -> has_typeb d v = true /\ finite_floatsb v = true.

Lemma tuple_decode_type ts : Forall DT ts ->
  forall xs vs, opt_zip decode ts xs = Some vs ->
  all2 has_typeb ts vs = true /\ forallb finite_floatsb vs = true.
Proof.
  induction 1 as [|t r Ht _ IH]; intros [|x xs] vs; simpl; try discriminate.
  - intros [= <-]. auto.
  - destruct (decode t x) as [v|] eqn:E1; try discriminate.
    destruct (opt_zip decode r xs) as [vs'|] eqn:E2; try discriminate.
    intros [= <-]. simpl.
    destruct (Ht _ _ E1) as [-> ->], (IH _ _ E2) as [-> ->]. auto.
Qed.

Lemma seq_decode_type t : DT t ->
  forall xs vs, opt_map (decode t) xs = Some vs ->
  forallb (has_typeb t) vs = true /\ forallb finite_floatsb vs = true.
Proof.
  intros Ht. induction xs as [|x xs IH]; intros vs; simpl.
  - intros [= <-]. auto.
  - destruct (decode t x) as [v|] eqn:E1; try discriminate.
    destruct (opt_map (decode t) xs) as [vs'|]; try discriminate.
    intros [= <-]. simpl.
    destruct (Ht _ _ E1) as [-> ->], (IH _ eq_refl) as [-> ->]. auto.
Qed.

Lemma fields_decode_type fs : Forall (fun ft => DT (snd ft)) fs ->
  forall m vs, dec_fields fs m = Some vs ->
  type_fields fs vs = true /\ forallb (fun fv => finite_floatsb (snd fv)) vs = true.
Proof.
  unfold dec_fields, type_fields.
  induction 1 as [|ft r Ht _ IH]; intros m vs; simpl.
  - intros [= <-]. auto.
  - unfold dec_field at 1.
    destruct (entries_for (fst ft) m) as [|kv [|]]; try discriminate.
    destruct (decode (snd ft) (snd kv)) as [v|] eqn:E1; try discriminate.
    destruct (opt_map _ r) as [vs'|] eqn:E2; try discriminate.
    intros [= <-]. simpl.
    destruct (Ht _ _ E1) as [-> ->], (IH _ _ E2) as [-> ->].
    rewrite String.eqb_refl. auto.
Qed.

Lemma decode_typed : forall d, DT d.
Proof.
  apply tydesc_shape_ind.
  - (* TFloat *)
    intros w [] v; simpl; try discriminate.
    destruct (float_width w && pattern_in_range w pattern && finite_pattern w pattern) eqn:E;
      try discriminate.
    intros [= <-]. simpl.
    apply andb_true_iff in E as [[-> ->]%andb_true_iff ->].
    rewrite Z.eqb_refl. auto.
  - (* TInt *)
    intros s b [] v; simpl; try discriminate.
    destruct (int_in_range s b n) eqn:E; try discriminate.
    intros [= <-]. auto.
  - (* TBool *)
    intros [] v; simpl; try discriminate. intros [= <-]. auto.
  - (* TUnitStruct *)
    intros n [] v; simpl; try discriminate. intros [= <-]. auto.
  - (* TStruct *)
    intros n fs IH [] v; simpl; try discriminate.
    destruct (opt_map _ fs) as [vs|] eqn:E; try discriminate.
    intros [= <-]. exact (fields_decode_type fs IH _ _ E).
  - (* TNewtype *)
    intros n t IH. exact IH.
  - (* TTupleStruct *)
    intros n ts IH [] v; simpl; try discriminate.
    destruct (opt_zip decode ts items) as [vs|] eqn:E; try discriminate.
    intros [= <-]. exact (tuple_decode_type ts IH _ _ E).
  - (* TEnum *)
    intros n vars IH [] v; try discriminate.
    + rewrite decode_enum_str.
      destruct (find_variant s vars) as [[]|] eqn:EF; try discriminate.
      intros [= <-]. rewrite has_type_enum, EF. auto.
    + destruct entries as [|[s y] [|]]; try discriminate.
      rewrite decode_enum_map.
      destruct (find_variant s vars) as [sh|] eqn:EF; try discriminate.
      destruct (decode (shape_desc sh) y) as [p|] eqn:ED; try discriminate.
      intros [= <-]. rewrite has_type_enum, EF.
      rewrite Forall_forall in IH.
      exact (IH _ (find_variant_In _ _ _ EF) _ _ ED).
  - (* TSeq *)
    intros t IH [] v; simpl; try discriminate.
    destruct (opt_map (decode t) items) as [vs|] eqn:E; try discriminate.
    intros [= <-]. exact (seq_decode_type t IH _ _ E).
Qed.

Theorem decode_type : forall d x v, decode d x = Some v -> has_type d v.
Proof. intros d x v H. exact (proj1 (decode_typed d x v H)). Qed.

Theorem decode_finite : forall d x v, decode d x = Some v -> finite_floats v.
Proof. intros d x v H. exact (proj2 (decode_typed d x v H)). Qed.

(* On the image of decode, encode is the inverse as well: a decoded value
   re-encodes to a document that decodes to the same value. *)
Corollary decode_encode_decode : forall d, wf d = true -> forall x v,
  decode d x = Some v -> decode d (encode d v) = Some v.
Proof.
  intros d W x v H. apply roundtrip; auto.
  - eapply decode_type; eauto.
  - eapply decode_finite; eauto.
Qed.

Open Scope string_scope.

Definition ex_exp : tydesc := TStruct "Exp" [("lambda_inverse", TFloat 64)].

Definition ex_gamma : tydesc :=
  TStruct "Gamma"
    [("repr",
      TEnum "GammaRepr"
        [("Large", VNewtype (TStruct "GammaLargeShape"
                               [("scale", TFloat 64); ("c", TFloat 64); ("d", TFloat 64)]));
         ("One", VNewtype ex_exp);
         ("Small", VNewtype (TStruct "GammaSmallShape"
                               [("inv_shape", TFloat 64);
                                ("large_shape",
                                 TStruct "GammaLargeShape"
                                   [("scale", TFloat 64); ("c", TFloat 64); ("d", TFloat 64)])]))])].

(* 0x3FF0000000000000 = 1.0, 0x4000000000000000 = 2.0, 0x3FE0000000000000 = 0.5 *)
Definition f64_one : Z := 4607182418800017408.
Definition f64_two : Z := 4611686018427387904.
Definition f64_half : Z := 4602678819172646912.
Definition f64_inf : Z := 9218868437227405312.   (* 0x7FF0000000000000 *)
Definition f64_nan : Z := 9221120237041090560.   (* 0x7FF8000000000000 *)

Definition ex_gamma_small : value :=
  VRecord [("repr",
            VVariant "Small"
              (VRecord [("inv_shape", VFloat 64 f64_two);
                        ("large_shape",
                         VRecord [("scale", VFloat 64 f64_one);
                                  ("c", VFloat 64 f64_half);
                                  ("d", VFloat 64 f64_two)])]))].

Definition ex_gamma_one : value :=
  VRecord [("repr", VVariant "One" (VRecord [("lambda_inverse", VFloat 64 f64_half)]))].

Example ex_gamma_wf : wf ex_gamma = true.
Proof. vm_compute. reflexivity. Qed.

Example ex_gamma_typed : has_typeb ex_gamma ex_gamma_small = true /\ finite_floatsb ex_gamma_small = true.
Proof. vm_compute. auto. Qed.

Example ex_gamma_doc :
  encode ex_gamma ex_gamma_one =
  DMap [("repr", DMap [("One", DMap [("lambda_inverse", DFloat f64_half)])])].
Proof. vm_compute. reflexivity. Qed.

Example ex_gamma_roundtrip :
  decode ex_gamma (encode ex_gamma ex_gamma_small) = Some ex_gamma_small.
Proof. vm_compute. reflexivity. Qed.

(* ... and the same fact as an instance of the theorem *)
Example ex_gamma_roundtrip' :
  decode ex_gamma (encode ex_gamma ex_gamma_small) = Some ex_gamma_small.
Proof. apply roundtrip; vm_compute; reflexivity. Qed.

(* field order in the document is irrelevant, unknown keys are ignored *)
Example ex_field_order :
  decode (TStruct "GammaLargeShape" [("scale", TFloat 64); ("c", TFloat 64); ("d", TFloat 64)])
         (DMap [("d", DFloat f64_two); ("extra", DNull); ("scale", DFloat f64_one); ("c", DFloat f64_half)])
  = Some (VRecord [("scale", VFloat 64 f64_one); ("c", VFloat 64 f64_half); ("d", VFloat 64 f64_two)]).
Proof. vm_compute. reflexivity. Qed.

(* missing and duplicated fields are rejected *)
Example ex_missing_field :
  decode ex_exp (DMap []) = None.
Proof. vm_compute. reflexivity. Qed.

Example ex_duplicate_field :
  decode ex_exp (DMap [("lambda_inverse", DFloat f64_one); ("lambda_inverse", DFloat f64_one)]) = None.
Proof. vm_compute. reflexivity. Qed.

(* unknown variant rejected; unit variants are strings *)
Definition ex_method : tydesc :=
  TEnum "Method" [("Auto", VUnit);
                  ("Knuth", VNewtype (TFloat 64));
                  ("Pair", VTuple [TInt false 64; TBool]);
                  ("Rec", VStruct [("n", TInt true 32)])].

Example ex_unit_variant :
  encode ex_method (VVariant "Auto" VUnitv) = DStr "Auto" /\
  decode ex_method (DStr "Auto") = Some (VVariant "Auto" VUnitv) /\
  decode ex_method (DStr "Nope") = None /\
  decode ex_method (DMap [("Nope", DNull)]) = None.
Proof. vm_compute. auto. Qed.

Example ex_variants :
  encode ex_method (VVariant "Pair" (VTup [VIntv 7; VBoolv true]))
    = DMap [("Pair", DArr [DInt 7; DBool true])] /\
  encode ex_method (VVariant "Rec" (VRecord [("n", VIntv (-3))]))
    = DMap [("Rec", DMap [("n", DInt (-3))])] /\
  decode ex_method (DMap [("Rec", DMap [("n", DInt (-3))])])
    = Some (VVariant "Rec" (VRecord [("n", VIntv (-3))])) /\
  (* out of range for i32 *)
  decode ex_method (DMap [("Rec", DMap [("n", DInt 2147483648)])]) = None.
Proof. vm_compute. auto. Qed.

(* Poisson<F>(Method<F>) is transparent; WeightedIndex-like record with a Vec *)
Definition ex_poisson : tydesc := TNewtype "Poisson" ex_method.
Example ex_newtype :
  encode ex_poisson (VVariant "Knuth" (VFloat 64 f64_two)) = DMap [("Knuth", DFloat f64_two)].
Proof. vm_compute. reflexivity. Qed.

Definition ex_weighted : tydesc :=
  TStruct "WeightedIndex" [("cumulative_weights", TSeq (TInt false 32));
                           ("total_weight", TInt false 32)].
Definition ex_weighted_v : value :=
  VRecord [("cumulative_weights", VList (map (fun n => VIntv (Z.of_nat n)) (seq 1 100)));
           ("total_weight", VIntv 100)].
Example ex_weighted_roundtrip :
  has_typeb ex_weighted ex_weighted_v = true /\
  decode ex_weighted (encode ex_weighted ex_weighted_v) = Some ex_weighted_v.
Proof. vm_compute. auto. Qed.

(* NEGATIVE 1: wf is necessary.  Two fields with the same name: the value is
   well typed and finite, but the document has a duplicate key and is rejected. *)
Definition ex_dup : tydesc := TStruct "Dup" [("x", TFloat 64); ("x", TFloat 64)].
Definition ex_dup_v : value := VRecord [("x", VFloat 64 f64_one); ("x", VFloat 64 f64_two)].
Example ex_dup_not_wf : wf ex_dup = false.
Proof. vm_compute. reflexivity. Qed.
Example ex_dup_no_roundtrip :
  has_type ex_dup ex_dup_v /\ finite_floats ex_dup_v /\
  decode ex_dup (encode ex_dup ex_dup_v) = None.
Proof. vm_compute. auto. Qed.

(* NEGATIVE 2: finiteness is necessary.  Infinity / NaN are written as null
   and null is not accepted for a float. *)
Example ex_inf_no_roundtrip :
  has_type ex_exp (VRecord [("lambda_inverse", VFloat 64 f64_inf)]) /\
  encode ex_exp (VRecord [("lambda_inverse", VFloat 64 f64_inf)]) = DMap [("lambda_inverse", DNull)] /\
  decode ex_exp (encode ex_exp (VRecord [("lambda_inverse", VFloat 64 f64_inf)])) = None /\
  decode ex_exp (encode ex_exp (VRecord [("lambda_inverse", VFloat 64 f64_nan)])) = None.
Proof. vm_compute. auto. Qed.

(* NOTE (outside the universe): a field marked #[serde(skip)] is neither
   written nor read -- on decode it is filled by Default::default(), so a type
   with a skipped field round-trips only if that field always holds its default.
   [tydesc] has no constructor for skipped fields, so the generator must fail
   (not silently drop the field) when it meets #[serde(skip)],
   #[serde(skip_serializing)], #[serde(default)], #[serde(rename)],
   #[serde(flatten)], #[serde(untagged)] / #[serde(tag = ..)], or a hand-written
   impl: [roundtrip] says nothing about those. *)
