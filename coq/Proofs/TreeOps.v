(* Proofs/TreeOps.v — new / push / pop / update establish and preserve Rep,
   never reach Panic for in-range arguments, and report Overflow exactly when the
   total would leave the weight type.  Stdlib only; axiom-free.               *)
From Coq Require Import ZArith List Bool Lia.
From RD Require Import Model.Tree Proofs.TreeBasics.
Import ListNotations.
Open Scope Z_scope.

Definition wf_ty (ty : wty) : Prop := wlo ty <= 0 <= whi ty.

Lemma inr_spec ty v : inr ty v = true <-> wlo ty <= v <= whi ty.
Proof. unfold inr. rewrite andb_true_iff, !Z.leb_le. tauto. Qed.
Lemma inr_ok ty v : wf_ty ty -> 0 <= v <= whi ty -> inr ty v = true.
Proof. unfold wf_ty. intros. apply inr_spec. lia. Qed.

Lemma upd_same_val (w : list Z) i : upd w i (nthz w i) = w.
Proof. revert i. induction w as [|a r IH]; intros [|i]; simpl; auto. unfold nthz in *. simpl. now rewrite IH. Qed.
Lemma nonneg_app w x : Nonneg w -> 0 <= x -> Nonneg (w ++ [x]).
Proof. intros N Hx i. rewrite nthz_snoc. specialize (N i). destruct (i =? length w)%nat; lia. Qed.
Lemma nonneg_unapp w x : Nonneg (w ++ [x]) -> 0 <= x /\ Nonneg w.
Proof. intros N. split; [specialize (N (length w))|intros i; specialize (N i)]; rewrite nthz_snoc in N.
  - now rewrite Nat.eqb_refl, nthz_oob in N.
  - destruct (Nat.eqb_spec i (length w)); [rewrite nthz_oob|]; lia. Qed.
Lemma zsum_upd w : forall i x, (i < length w)%nat -> zsum (upd w i x) = zsum w - nthz w i + x.
Proof. unfold zsum, nthz. induction w as [|a r IH]; intros [|i] x H; simpl in *; try lia.
  rewrite IH by lia. lia. Qed.

(* `new`: when the loop is about to handle index m-1, the children c >= m have been
   added to their parents *)
Definition csub (t : list Z) (m c : nat) : Z :=
  if ((m <=? c) && (c <? length t))%nat then nthz t c else 0.
Definition PInv (w t : list Z) (m : nat) : Prop :=
  length w = length t /\
  forall j, (j < length t)%nat -> nthz t j = nthz w j + csub t m (2*j+1) + csub t m (2*j+2).

Lemma csub_nthz t m c : csub t m c = if (m <=? c)%nat then nthz t c else 0.
Proof. unfold csub. destruct (Nat.leb_spec m c), (Nat.ltb_spec c (length t)); simpl; auto.
  now rewrite nthz_oob. Qed.
Lemma csub_upd t p v m c : (p < m)%nat -> csub (upd t p v) m c = csub t m c.
Proof. intros. rewrite !csub_nthz. destruct (Nat.leb_spec m c); [apply nthz_upd_other; lia|reflexivity]. Qed.
Lemma csub_S t m c : csub t m c = csub t (S m) c + (if (c =? m)%nat then nthz t m else 0).
Proof. rewrite !csub_nthz.
  destruct (Nat.leb_spec m c), (Nat.leb_spec (S m) c), (Nat.eqb_spec c m) as [->|]; lia. Qed.

Lemma csub_len t c : csub t (length t) c = 0.
Proof. rewrite csub_nthz. destruct (Nat.leb_spec (length t) c); [now apply nthz_oob|reflexivity]. Qed.

Lemma pinv_init w : PInv w w (length w).
Proof. split; [reflexivity|]. intros j _. rewrite !csub_len. lia. Qed.

Lemma pinv_step w t i : PInv w t (S i) -> (0 < i < length t)%nat ->
  PInv w (upd t (par i) (nthz t (par i) + nthz t i)) i.
Proof.
  intros [L R] Hi. pose proof (par_lt i ltac:(lia)). split; rewrite length_upd; [exact L|]. intros j Hj.
  rewrite nthz_upd_add, !csub_upd, !(csub_S t i), (R j Hj), (par_child_sel j i) by lia. lia.
Qed.

Lemma pinv_rep w t : PInv w t 1 -> Rep w t.
Proof. intros [L R]. split; [exact L|]. intros i Hi. rewrite (R i Hi), !csub_nthz, !sub_nthz.
  now rewrite !(proj2 (Nat.leb_le 1 _)) by lia. Qed.

Lemma sumf_upd t p v : forall m, (p < m)%nat -> (p < length t)%nat ->
  sumf (nthz (upd t p v)) m = sumf (nthz t) m + (v - nthz t p).
Proof. induction m; intros Hm Hl; [lia|]. cbn [sumf].
  destruct (Nat.eq_dec p m) as [->|Hne].
  - rewrite nthz_upd_same by lia.
    rewrite (sumf_ext (nthz (upd t m v)) (nthz t) m) by (intros; apply nthz_upd_other; lia). lia.
  - rewrite IHm by lia. rewrite nthz_upd_other by lia. lia. Qed.

Lemma sumf_ge_term f : (forall j, 0 <= f j) -> forall m p, (p < m)%nat -> f p <= sumf f m.
Proof. intros N. induction m; intros p Hp; [lia|]. cbn [sumf].
  assert (0 <= sumf f m) by (clear -N; induction m; simpl; [lia|specialize (N m); lia]).
  destruct (Nat.eq_dec p m) as [->|Hne]; [lia|]. specialize (IHm p ltac:(lia)). specialize (N m). lia. Qed.

(* the entries below the loop index keep their sum: the root ends as the total, and a
   rejected addition exceeds the type because the total does *)
Lemma new_loop_inv ty w : forall k t, (k < length t)%nat -> PInv w t (S k) ->
  (forall j, 0 <= nthz t j <= whi ty) ->
  match new_loop ty (rev (seq 1 k)) t with
  | Ok t' => PInv w t' 1 /\ nthz t' 0 <= whi ty /\ nthz t' 0 = sumf (nthz t) (S k)
  | Err e => e = Overflow /\ whi ty < sumf (nthz t) (S k)
  | Panic => False
  end.
Proof.
  induction k as [|k IH]; intros t Hk P B.
  - simpl. repeat split; [apply P|apply P|apply B].
  - rewrite seq_S, rev_unit. change (1 + k)%nat with (S k). cbn [new_loop]. cbv zeta.
    pose proof (par_lt (S k) ltac:(lia)) as Hp.
    set (v := nthz t (par (S k)) + nthz t (S k)).
    pose proof (sumf_upd t (par (S k)) v (S k) Hp ltac:(lia)) as S1.
    replace (sumf (nthz t) (S (S k))) with (sumf (nthz (upd t (par (S k)) v)) (S k)) by (cbn [sumf] in *; lia).
    destruct (Z.leb_spec v (whi ty)) as [Hle|Hgt].
    + apply IH; [rewrite length_upd; lia|apply pinv_step; [exact P|lia]|].
      apply (nthz_upd_all (fun x => 0 <= x <= whi ty)); [exact B|].
      pose proof (B (par (S k))). pose proof (B (S k)). lia.
    + split; [reflexivity|].
      pose proof (sumf_ge_term (nthz t) (fun j => proj1 (B j)) (S k) (par (S k)) Hp). lia.
Qed.

Lemma forallb_nonneg ws : forallb (fun w => 0 <=? w) ws = true <-> Nonneg ws.
Proof. split.
  - intros H i. destruct (Nat.ltb_spec i (length ws)); [|rewrite nthz_oob by lia; lia].
    rewrite forallb_forall in H. apply Z.leb_le. apply H. unfold nthz. now apply nth_In.
  - intros N. apply forallb_forall. intros x Hx. apply Z.leb_le.
    destruct (In_nth _ _ 0 Hx) as [i [Hi E]]. specialize (N i). unfold nthz in N. lia.
Qed.

Definition InRange (ty : wty) (ws : list Z) : Prop := forall i, nthz ws i <= whi ty.

Theorem tree_new_spec ty ws : wf_ty ty -> InRange ty ws ->
  match tree_new ty ws with
  | Ok t => Nonneg ws /\ zsum ws <= whi ty /\ Rep ws t
  | Err InvalidWeight => ~ Nonneg ws
  | Err Overflow => Nonneg ws /\ whi ty < zsum ws
  | Err _ => False
  | Panic => False
  end.
Proof.
  intros WF IR. unfold tree_new.
  destruct (forallb (fun w => 0 <=? w) ws) eqn:F; [apply forallb_nonneg in F|].
  2:{ intros N. apply forallb_nonneg in N. congruence. }
  destruct (Nat.eq_dec (length ws) 0) as [E|E].
  { destruct ws; [|discriminate E]. cbn. split; [exact F|split; [apply WF|split; [reflexivity|intros i Hi; inversion Hi]]]. }
  pose proof (new_loop_inv ty ws (length ws - 1) ws ltac:(lia)) as H.
  replace (S (length ws - 1)) with (length ws) in H by lia. rewrite <- zsum_sumf in H.
  specialize (H (pinv_init ws) (fun j => conj (F j) (IR j))).
  destruct (new_loop ty (rev (seq 1 (length ws - 1))) ws) as [t| e |]; [|destruct H as [-> H]; auto|exact H].
  destruct H as [P [UB S]]. split; [exact F|]. split; [lia|now apply pinv_rep].
Qed.

Definition Inv (ty : wty) (t : list Z) : Prop :=
  exists w, Rep w t /\ Nonneg w /\ zsum w <= whi ty.

Lemma inv_abs ty t : Inv ty t -> Rep (abs t) t /\ Nonneg (abs t) /\ zsum (abs t) <= whi ty.
Proof. intros [w [R [N HS]]]. rewrite (rep_abs w t R). auto. Qed.

Lemma rep_root w r tr : Rep w (r :: tr) -> r = zsum w.
Proof. exact (rep_root_sum w (r :: tr)). Qed.

Lemma rep_is_empty w t : Rep w t -> tree_is_empty w = tree_is_empty t.
Proof. intros [L _]. destruct w, t; try discriminate L; reflexivity. Qed.

(* The shape the three operations share: the vector u is t with d added at leaf k (k may be
   the slot just pushed, or the one just popped), the walk then adds d to the strict
   ancestors of k, and the result represents w with d added at k.  The subtotals on the path
   lie between the weight at k and the total, so the walk stays in the type if every such
   value does after adding d. *)
Lemma climb_rep ty w t w' u k d : wf_ty ty -> Rep w t -> Nonneg w ->
  length w' = length u -> (k <= length u)%nat ->
  (forall j, nthz w' j = nthz w j + (if (j =? k)%nat then d else 0)) ->
  (forall j, nthz u j = nthz t j + (if (j =? k)%nat then d else 0)) ->
  (forall v, nthz w k <= v <= zsum w -> 0 <= v + d <= whi ty) ->
  exists t', climb k ty d u k = Ok t' /\ Rep w' t'.
Proof.
  intros WF R N L Hk Hw Hu Hv. destruct (climb_ok k ty d u k (le_n k) Hk) as [t' E].
  { intros j Hj. pose proof (sanc_lt _ _ _ Hj). rewrite Hu, (proj2 (Nat.eqb_neq j k)), Z.add_0_r by lia.
    apply inr_ok, Hv; [exact WF|]. pose proof (rep_chain w t _ j k R N (sanc_anc _ _ _ Hj)). lia. }
  exists t'. split; [exact E|]. apply climb_spec in E as [L' Ht']; [|lia..].
  apply (rep_path (S k) w t w' t' k d R); [lia|lia|exact Hw|].
  intros j. rewrite Ht', Hu, anc_S_sel. lia.
Qed.

(* the same for a slot i of the vector, as `update` writes it, leaf included *)
Lemma climb_leaf ty w t i d : wf_ty ty -> Rep w t -> Nonneg w -> (i < length t)%nat ->
  (forall v, nthz w i <= v <= zsum w -> 0 <= v + d <= whi ty) ->
  exists t', (if inr ty (nthz t i + d) then climb i ty d (upd t i (nthz t i + d)) i else Panic) = Ok t' /\
             Rep (upd w i (nthz w i + d)) t'.
Proof.
  intros WF R N Hi Hv. pose proof R as [L _]. pose proof (rep_chain w t 0 i i R N (anc_refl 0 i)).
  rewrite (inr_ok ty _ WF (Hv (nthz t i) ltac:(lia))).
  apply (climb_rep ty w t _ _ i d WF R N); rewrite ?length_upd; [exact L|lia|..|exact Hv].
  1,2: intros j; apply nthz_upd_add; lia.
Qed.

Lemma push_err_weight ty t x : x < 0 -> tree_push ty t x = Err InvalidWeight.
Proof. intros. unfold tree_push. destruct (Z.ltb_spec x 0); [auto|lia]. Qed.

Lemma update_err_weight ty t i x : x < 0 -> tree_update ty t i x = Err InvalidWeight.
Proof. intros. unfold tree_update. destruct (Z.ltb_spec x 0); [auto|lia]. Qed.

Lemma pop_empty ty : tree_pop ty [] = Ok ([], None).
Proof. reflexivity. Qed.

Lemma rep_last_leaf w t wl tl : Rep (w ++ [wl]) (t ++ [tl]) -> wl = tl.
Proof. intros [L R]%rep_iff. rewrite !app_length in L. simpl in L. specialize (R (length t)).
  rewrite !nthz_snoc, !nthz_oob in R by lia. replace (length w) with (length t) in R by lia.
  rewrite Nat.eqb_refl, !(proj2 (Nat.eqb_neq _ (length t))) in R by lia. lia. Qed.

Lemma pop_ok ty w t wl tl : wf_ty ty -> Rep (w ++ [wl]) (t ++ [tl]) -> Nonneg (w ++ [wl]) ->
  zsum (w ++ [wl]) <= whi ty ->
  exists t', tree_pop ty (t ++ [tl]) = Ok (t', Some wl) /\ Rep w t'.
Proof.
  intros WF R N HS. pose proof (rep_last_leaf _ _ _ _ R) as <-.
  unfold tree_pop. rewrite rev_unit, rev_involutive.
  assert (L : length w = length t) by (destruct R as [L _]; rewrite !app_length in L; simpl in L; lia).
  destruct (nonneg_unapp w wl N) as [Hwl _]. rewrite zsum_snoc in HS.
  destruct (climb_rep ty (w ++ [wl]) (t ++ [wl]) w t (length t) (- wl) WF R N L (le_n _)) as [t' [-> R']];
    [..|eauto].
  1,2: intros j; rewrite nthz_snoc, ?L; destruct (j =? length t)%nat; lia.
  intros v. rewrite nthz_snoc, zsum_snoc, L, Nat.eqb_refl, nthz_oob by lia. lia.
Qed.

(* a state t that represents non-negative weights w whose total fits the type *)
Section State.
Variables (ty : wty) (w t : list Z).
Hypotheses (WF : wf_ty ty) (R : Rep w t) (N : Nonneg w) (HS : zsum w <= whi ty).

Lemma inv_entries j : 0 <= sub t j <= whi ty.
Proof. pose proof (rep_chain w t 0 j j R N (anc_refl 0 j)). rewrite sub_nthz. lia. Qed.

(* push and update test the root against the type before they walk *)
Lemma root_check d : (match t with [] => false | r :: _ => whi ty <? r + d end) =
  negb (tree_is_empty t) && (whi ty <? zsum w + d).
Proof. destruct t as [|r tr]; [reflexivity|]. now rewrite (rep_root w r tr R) at 1. Qed.

Lemma get_chk_ok i : (i < length t)%nat -> get_chk ty t i = Ok (nthz w i).
Proof.
  intros Hi. unfold get_chk. destruct (Nat.ltb_spec i (length t)); [|lia].
  pose proof (rep_sub w t R i) as E. pose proof (inv_entries i).
  pose proof (inv_entries (2*i+1)). pose proof (inv_entries (2*i+2)). pose proof (N i).
  rewrite (sub_nthz t i) in *. rewrite !inr_ok by (auto; lia). f_equal. lia.
Qed.

Lemma push_spec x : 0 <= x <= whi ty ->
  if negb (tree_is_empty t) && (whi ty <? zsum w + x) then tree_push ty t x = Err Overflow
  else exists t', tree_push ty t x = Ok t' /\ Rep (w ++ [x]) t'.
Proof.
  intros Hx. unfold tree_push. rewrite root_check. destruct (Z.ltb_spec x 0); [lia|].
  destruct (negb _ && _) eqn:Hov; [reflexivity|]. pose proof R as [L _].
  apply (climb_rep ty w t (w ++ [x]) (t ++ [x]) (length t) x WF R N); rewrite ?app_length; [lia|lia|..].
  1,2: intros j; now rewrite nthz_snoc, ?L.
  intros v Hv. rewrite nthz_oob in Hv by lia.
  destruct w, t; try discriminate L; [change (zsum []) with 0 in Hv; lia|]. apply Z.ltb_ge in Hov. lia.
Qed.

Lemma update_spec i x : (i < length t)%nat -> 0 <= x ->
  if whi ty <? zsum w - nthz w i + x then tree_update ty t i x = Err Overflow
  else exists t', tree_update ty t i x = Ok t' /\ Rep (upd w i x) t'.
Proof.
  intros Hi Hx. unfold tree_update. destruct (Z.ltb_spec x 0); [lia|]. rewrite (get_chk_ok i Hi). cbv zeta.
  rewrite root_check. replace (tree_is_empty t) with false by (destruct t; [inversion Hi|reflexivity]).
  replace (zsum w + (x - nthz w i)) with (zsum w - nthz w i + x) by lia. cbn [negb andb].
  destruct (Z.ltb_spec (whi ty) (zsum w - nthz w i + x)).
  { destruct (Z.ltb_spec (nthz w i) x); [reflexivity|lia]. }
  (* the walk adds d = x - w_i, of either sign *)
  assert (C : forall d, x = nthz w i + d -> exists t',
    (if inr ty (nthz t i + d) then climb i ty d (upd t i (nthz t i + d)) i else Panic) = Ok t' /\ Rep (upd w i x) t').
  { intros d ->. apply climb_leaf; auto. intros v Hv. pose proof (N i). lia. }
  destruct (Z.ltb_spec (nthz w i) x); [apply C; lia|].
  destruct (Z.ltb_spec x (nthz w i)); [apply (C (- (nthz w i - x))); lia|].
  replace x with (nthz w i) by lia. rewrite upd_same_val. eauto.
Qed.

End State.
