(* Proofs/GuardProofs2.v — C04, part 2: constructors whose validation first computes with
   constants (ChiSquared, StudentT, FisherF, Poisson).  Proved for any format in which the
   literal constants have their intended values (section hypotheses, discharged by computation
   for binary64 and binary32 at the end of the file).                                          *)
From Coq Require Import ZArith List Bool String Reals Lra Lia.
From Flocq Require Import Core.Core IEEE754.Binary IEEE754.Bits IEEE754.BinarySingleNaN.
From RD Require Import Model.Guards Model.GuardSpec Proofs.GuardLemmas Proofs.AffineFl Proofs.GuardArith.
Import ListNotations.
Open Scope R_scope.

Section Fmt.
Variable prec emax : Z.
Context (Hp : Prec_gt_0 prec) (Hpe : Prec_lt_emax prec emax).
Notation float := (binary_float prec emax).
Notation one := (one prec emax Hp Hpe).
Notation zero := (zero prec emax).
Notation half := (half prec emax Hp Hpe).
Notation two := (two prec emax Hp Hpe).
Notation fmul := (fmul prec emax Hp Hpe).
Notation fgt := (fgt prec emax).
Notation feq := (feq prec emax).

(* `x == 1.0` identifies x *)
Lemma feq_one_inv (k : float) : feq k one = true -> k = one.
Proof.
  intros E. assert (F : is_finite k = true).
  { destruct (one_struct prec emax Hp Hpe) as (m & e & H & E1). rewrite E1 in E.
    destruct k as [|[|]| |]; try discriminate; reflexivity. }
  unfold Guards.feq in E. rewrite fcmp_finite, (one_B2R prec emax Hp Hpe) in E by (trivial; apply one_fin).
  destruct (Rcompare_spec (B2R k) 1) as [|E1|]; try discriminate.
  apply B2R_inj.
  - destruct k; try discriminate; simpl in E1; try lra. reflexivity.
  - apply is_finite_strict_Bone.
  - rewrite E1. symmetry. apply one_B2R.
Qed.

Section ChiSq.
Hypothesis two_pos : fgt two zero = true.
Hypothesis half_one_pos : fgt (fmul half one) zero = true.

(* Gamma::new(0.5 * k, 2.0).unwrap() never panics; the `k == 1` shortcut agrees with the test *)
Lemma ChiSquared_new_eq (k : float) :
  ChiSquared_new prec emax Hp Hpe k = chain [(negb (fgt (fmul half k) zero), "DoFTooSmall")].
Proof.
  unfold ChiSquared_new. rewrite Gamma_new_eq, two_pos.
  destruct (feq k one) eqn:E.
  - apply feq_one_inv in E. subst k. now rewrite half_one_pos.
  - destruct (fgt (fmul half k) zero); reflexivity.
Qed.

Theorem ChiSquared_new_sound (k : float) :
  agrees (ChiSquared_new prec emax Hp Hpe k) (spec_ChiSquared_new prec emax Hp Hpe k).
Proof.
  rewrite ChiSquared_new_eq, not_fgt_zero. exact (chain_spec [_] [] _).
Qed.

Theorem StudentT_new_sound (nu : float) :
  agrees (StudentT_new prec emax Hp Hpe nu) (spec_StudentT_new prec emax Hp Hpe nu).
Proof. apply ChiSquared_new_sound. Qed.

Theorem FisherF_new_sound (m n : float) :
  agrees (FisherF_new prec emax Hp Hpe m n) (spec_FisherF_new prec emax Hp Hpe m n).
Proof.
  unfold FisherF_new, spec_FisherF_new. rewrite !ChiSquared_new_eq, !not_fgt_zero.
  destruct (le0_or_nan _ _ (fmul half m)), (le0_or_nan _ _ (fmul half n)), (v_inf _ _ m || v_inf _ _ n); cbn; auto.
Qed.
End ChiSq.

Section Poisson.
Notation twelve := (twelve prec emax Hp Hpe).
Notation max_lambda := (max_lambda prec emax Hp Hpe).
Hypothesis twelve_fin : is_finite twelve = true.
Hypothesis twelve_val : B2R twelve = 12.
Hypothesis ml_fin : is_finite max_lambda = true.
(* fl(1.844e19) <= 1.844e19: equality in binary64, strict in binary32 *)
Hypothesis ml_le : B2R max_lambda <= IZR MAX_LAMBDA_Z.

(* on finite values the two comparisons with rounded constants decide `lambda > 1.844e19` exactly:
   lambda <= 1.844e19 implies lambda <= fl(1.844e19) because rounding is monotone *)
Lemma Poisson_too_large (x : float) :
  is_finite x = true ->
  negb (flt prec emax x twelve) && fgt x max_lambda = gtZ prec emax x MAX_LAMBDA_Z.
Proof.
  intros F. rewrite (gtZ_correct prec emax x _ F).
  case Rlt_bool_spec; intros L.
  - rewrite (proj2 (fgt_finite _ _ x max_lambda F ml_fin)) by lra.
    destruct (flt prec emax x twelve) eqn:T; trivial.
    apply flt_finite in T; trivial. unfold MAX_LAMBDA_Z in L. lra.
  - destruct (fgt x max_lambda) eqn:G; [|apply andb_false_r].
    apply fgt_finite in G; trivial.
    assert (B2R x <= B2R max_lambda); [|lra].
    unfold Guards.max_lambda, of_Z in *. rewrite (cdy_correct _ _ _ _ _ _ ml_fin).
    apply rnd_ge_B2R; trivial. unfold F2R; simpl Fnum; simpl Fexp; simpl bpow. lra.
Qed.

Theorem Poisson_new_sound (lambda : float) :
  agrees (Poisson_new prec emax Hp Hpe lambda) (spec_Poisson_new prec emax lambda).
Proof.
  unfold Poisson_new, spec_Poisson_new.
  (* the first two tests are decided by the shape of lambda *)
  destruct lambda as [s|[|]| |[|] m e H]; try (apply agrees_err; reflexivity).
  pose proof (Poisson_too_large (B754_finite false m e H) eq_refl) as T.
  destruct (flt _ _ _ twelve), (fgt _ max_lambda), (gtZ _ _ _ _); try discriminate T;
    first [apply agrees_err | apply agrees_ok]; reflexivity.
Qed.
End Poisson.

End Fmt.

(* Instances: the constants' facts by computation *)
Ltac const_SF := vm_compute; reflexivity.

Lemma two_pos64 : fgt 53 1024 (two 53 1024 Hp64 Hpe64) (zero 53 1024) = true.
Proof. const_SF. Qed.
Lemma two_pos32 : fgt 24 128 (two 24 128 Hp32 Hpe32) (zero 24 128) = true.
Proof. const_SF. Qed.
Lemma half_one_pos64 :
  fgt 53 1024 (fmul 53 1024 Hp64 Hpe64 (half 53 1024 Hp64 Hpe64) (one 53 1024 Hp64 Hpe64)) (zero 53 1024) = true.
Proof. const_SF. Qed.
Lemma half_one_pos32 :
  fgt 24 128 (fmul 24 128 Hp32 Hpe32 (half 24 128 Hp32 Hpe32) (one 24 128 Hp32 Hpe32)) (zero 24 128) = true.
Proof. const_SF. Qed.

Theorem ChiSquared_new_sound64 (k : f64) :
  agrees (ChiSquared_new 53 1024 Hp64 Hpe64 k) (spec_ChiSquared_new 53 1024 Hp64 Hpe64 k).
Proof. apply ChiSquared_new_sound. exact two_pos64. exact half_one_pos64. Qed.
Theorem ChiSquared_new_sound32 (k : f32) :
  agrees (ChiSquared_new 24 128 Hp32 Hpe32 k) (spec_ChiSquared_new 24 128 Hp32 Hpe32 k).
Proof. apply ChiSquared_new_sound. exact two_pos32. exact half_one_pos32. Qed.
Theorem StudentT_new_sound64 (nu : f64) :
  agrees (StudentT_new 53 1024 Hp64 Hpe64 nu) (spec_StudentT_new 53 1024 Hp64 Hpe64 nu).
Proof. apply StudentT_new_sound. exact two_pos64. exact half_one_pos64. Qed.
Theorem StudentT_new_sound32 (nu : f32) :
  agrees (StudentT_new 24 128 Hp32 Hpe32 nu) (spec_StudentT_new 24 128 Hp32 Hpe32 nu).
Proof. apply StudentT_new_sound. exact two_pos32. exact half_one_pos32. Qed.
Theorem FisherF_new_sound64 (m n : f64) :
  agrees (FisherF_new 53 1024 Hp64 Hpe64 m n) (spec_FisherF_new 53 1024 Hp64 Hpe64 m n).
Proof. apply FisherF_new_sound. exact two_pos64. exact half_one_pos64. Qed.
Theorem FisherF_new_sound32 (m n : f32) :
  agrees (FisherF_new 24 128 Hp32 Hpe32 m n) (spec_FisherF_new 24 128 Hp32 Hpe32 m n).
Proof. apply FisherF_new_sound. exact two_pos32. exact half_one_pos32. Qed.

(* value of a constant: B2SF by computation, then arithmetic *)
Ltac const_val E :=
  rewrite (B2R_of_SF _ _ _ _ _ _ E); unfold F2R; simpl; lra.

Lemma twelve_SF64 : B2SF (twelve 53 1024 Hp64 Hpe64) = SpecFloat.S754_finite false 6755399441055744 (-49).
Proof. const_SF. Qed.
Lemma twelve_SF32 : B2SF (twelve 24 128 Hp32 Hpe32) = SpecFloat.S754_finite false 12582912 (-20).
Proof. const_SF. Qed.
Lemma ml_SF64 : B2SF (max_lambda 53 1024 Hp64 Hpe64) = SpecFloat.S754_finite false 9003906250000000 11.
Proof. const_SF. Qed.
Lemma ml_SF32 : B2SF (max_lambda 24 128 Hp32 Hpe32) = SpecFloat.S754_finite false 16771082 40.
Proof. const_SF. Qed.

Theorem Poisson_new_sound64 (lambda : f64) :
  agrees (Poisson_new 53 1024 Hp64 Hpe64 lambda) (spec_Poisson_new 53 1024 lambda).
Proof.
  apply Poisson_new_sound.
  - exact (finite_of_SF _ _ _ _ _ _ twelve_SF64).
  - const_val twelve_SF64.
  - exact (finite_of_SF _ _ _ _ _ _ ml_SF64).
  - unfold MAX_LAMBDA_Z. const_val ml_SF64.
Qed.
Theorem Poisson_new_sound32 (lambda : f32) :
  agrees (Poisson_new 24 128 Hp32 Hpe32 lambda) (spec_Poisson_new 24 128 lambda).
Proof.
  apply Poisson_new_sound.
  - exact (finite_of_SF _ _ _ _ _ _ twelve_SF32).
  - const_val twelve_SF32.
  - exact (finite_of_SF _ _ _ _ _ _ ml_SF32).
  - unfold MAX_LAMBDA_Z. const_val ml_SF32.
Qed.
