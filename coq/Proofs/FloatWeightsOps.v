(* Proofs/FloatWeightsOps.v — the float operations of Model/FloatWeights.v in terms of real
   values, generic in the format: comparison of finite values, and the result of + - * / and
   `n as f` on finite operands, stated once through the predicate `rounded`.                 *)
From Coq Require Import Reals Lra.
From Flocq Require Import Core.Core IEEE754.BinarySingleNaN.
From RD Require Import Model.FloatWeights Proofs.FloatWeightsProofs.

Section Fmt.
Context {prec emax : Z} {Hp : Prec_gt_0 prec} {Hpe : Prec_lt_emax prec emax}.
Notation float := (BinarySingleNaN.binary_float prec emax).
Notation fzero := (fzero prec emax).
Notation fone := (fone prec emax Hp Hpe).
Notation flt := (flt prec emax).
Notation fle := (fle prec emax).
Notation fadd := (fadd prec emax Hp Hpe).
Notation fsub := (fsub prec emax Hp Hpe).
Notation fmul := (fmul prec emax Hp Hpe).
Notation fdiv := (fdiv prec emax Hp Hpe).
Notation fdy := (fdy prec emax Hp Hpe).
Notation fbad_w := (fbad_w prec emax).
Notation fexp := (SpecFloat.fexp prec emax).
Notation rnd := (round radix2 fexp (round_mode mode_NE)).

Local Instance fexp_ok : Valid_exp fexp := fexp_correct prec emax Hp.

Lemma B2R_pos_finite : forall m e (H : SpecFloat.bounded prec emax m e = true),
  (0 < B2R (B754_finite false m e H : float))%R.
Proof. intros. apply F2R_gt_0. reflexivity. Qed.

Lemma notbad_B2R : forall x : float, fbad_w x = false -> (0 <= B2R x)%R.
Proof.
  intros [s|s| |[|] m e H]; simpl; intros Hb; try lra; [discriminate|].
  apply Rlt_le, F2R_gt_0. reflexivity.
Qed.

Lemma finite_nonneg_notbad : forall x : float,
  is_finite x = true -> (0 <= B2R x)%R -> fbad_w x = false.
Proof.
  intros [s|s| |[|] m e H] F; try discriminate; try reflexivity.
  intros N. apply Rle_not_lt in N. destruct N. apply F2R_lt_0. reflexivity.
Qed.

Lemma one_facts : is_finite fone = true /\ B2R fone = 1%R.
Proof. split; [apply is_finite_Bone | apply Bone_correct]. Qed.

Lemma flt_finite : forall x y : float, is_finite x = true -> is_finite y = true ->
  flt x y = Rlt_bool (B2R x) (B2R y).
Proof. exact (Bltb_correct prec emax). Qed.

Lemma fle_finite : forall x y : float, is_finite x = true -> is_finite y = true ->
  fle x y = Rle_bool (B2R x) (B2R y).
Proof. exact (Bleb_correct prec emax). Qed.

Lemma rnd_ge : forall (a : float) v, (B2R a <= v)%R -> (B2R a <= rnd v)%R.
Proof. intros. apply round_ge_generic; auto with typeclass_instances. apply generic_format_B2R. Qed.

Lemma rnd_le : forall (b : float) v, (v <= B2R b)%R -> (rnd v <= B2R b)%R.
Proof. intros. apply round_le_generic; auto with typeclass_instances. apply generic_format_B2R. Qed.

(* r is the result of an operation whose exact value is v and whose overflow has sign s *)
Definition rounded (s : bool) (r : float) (v : R) : Prop :=
  if Rlt_bool (Rabs (rnd v)) (bpow radix2 emax)
  then is_finite r = true /\ B2R r = rnd v
  else r = B754_infinity s.

Lemma overflow_NE_inf : forall s (x : float),
  B2SF x = binary_overflow prec emax mode_NE s -> x = B754_infinity s.
Proof. intros s [s'|s'| |s' m e H]; unfold binary_overflow; simpl; intros [=]; subst; reflexivity. Qed.

Lemma fadd_rounded : forall x y : float, is_finite x = true -> is_finite y = true ->
  rounded (Bsign x) (fadd x y) (B2R x + B2R y).
Proof.
  intros x y Fx Fy. unfold rounded.
  pose proof (Bplus_correct prec emax Hp Hpe mode_NE x y Fx Fy) as H.
  destruct (Rlt_bool _ _); [tauto | apply overflow_NE_inf, H].
Qed.

Lemma fsub_rounded : forall x y : float, is_finite x = true -> is_finite y = true ->
  rounded (Bsign x) (fsub x y) (B2R x - B2R y).
Proof.
  intros x y Fx Fy. unfold rounded.
  pose proof (Bminus_correct prec emax Hp Hpe mode_NE x y Fx Fy) as H.
  destruct (Rlt_bool _ _); [tauto | apply overflow_NE_inf, H].
Qed.

Lemma fmul_rounded : forall x y : float, is_finite x = true -> is_finite y = true ->
  rounded (xorb (Bsign x) (Bsign y)) (fmul x y) (B2R x * B2R y).
Proof.
  intros x y Fx Fy. unfold rounded.
  pose proof (Bmult_correct prec emax Hp Hpe mode_NE x y) as H. rewrite Fx, Fy in H.
  destruct (Rlt_bool _ _); [tauto | apply overflow_NE_inf, H].
Qed.

Lemma fdiv_rounded : forall x y : float, is_finite x = true -> B2R y <> 0%R ->
  rounded (xorb (Bsign x) (Bsign y)) (fdiv x y) (B2R x / B2R y).
Proof.
  intros x y Fx Hy. unfold rounded.
  pose proof (Bdiv_correct prec emax Hp Hpe mode_NE x y Hy) as H. rewrite Fx in H.
  destruct (Rlt_bool _ _); [tauto | apply overflow_NE_inf, H].
Qed.

Lemma fdy_rounded : forall m e,
  rounded (Rlt_bool (F2R (Float radix2 m e)) 0) (fdy m e) (F2R (Float radix2 m e)).
Proof.
  intros m e. unfold rounded.
  pose proof (binary_normalize_correct prec emax Hp Hpe mode_NE m e false) as H. cbv zeta in H.
  destruct (Rlt_bool _ _); [tauto | apply overflow_NE_inf, H].
Qed.

Lemma rounded_finite : forall s r v y, rounded s r v ->
  generic_format radix2 fexp y -> (y < bpow radix2 emax)%R -> (Rabs v <= y)%R ->
  is_finite r = true /\ B2R r = rnd v.
Proof.
  unfold rounded. intros s r v y H Fy Hy Hv. rewrite Rlt_bool_true in H; [exact H|].
  apply Rle_lt_trans with y; [|exact Hy]. apply abs_round_le_generic; auto with typeclass_instances.
Qed.

Lemma rounded_bounded : forall s r v (b : float), rounded s r v -> (0 <= v <= B2R b)%R ->
  is_finite r = true /\ (0 <= B2R r <= B2R b)%R.
Proof.
  intros s r v b H Hv.
  destruct (rounded_finite s r v (B2R b) H) as [F E].
  - apply generic_format_B2R.
  - apply Rle_lt_trans with (Rabs (B2R b)); [apply Rle_abs | apply abs_B2R_lt_emax].
  - rewrite Rabs_pos_eq; apply Hv.
  - rewrite E. split; [exact F|]. split; [apply (rnd_ge fzero) | apply rnd_le]; apply Hv.
Qed.

Lemma rounded_notbad : forall r v, rounded false r v -> (0 <= v)%R -> fbad_w r = false.
Proof.
  unfold rounded. intros r v H Hv. destruct (Rlt_bool _ _); [|subst r; reflexivity].
  destruct H as [F E]. apply finite_nonneg_notbad; [exact F|]. rewrite E. apply (rnd_ge fzero), Hv.
Qed.

Lemma rounded_ge : forall (a r : float) v, rounded false r v -> is_finite a = true ->
  (B2R a <= v)%R -> flt r a = false.
Proof.
  unfold rounded. intros a r v H Fa Hv. destruct (Rlt_bool _ _).
  - destruct H as [F E]. rewrite flt_finite by assumption.
    apply Rlt_bool_false. rewrite E. apply rnd_ge, Hv.
  - subst r. destruct a; try discriminate; reflexivity.
Qed.

End Fmt.
