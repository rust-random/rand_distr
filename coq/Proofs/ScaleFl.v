(* Proofs/ScaleFl.v — property C07 at the IEEE level for the scale families: the last operation of Exp::sample
   (exponential.rs:189: Exp1 * lambda_inverse), Weibull::sample (weibull.rs:104: scale * (-ln x)^(1/k)) and Pareto::sample
   (pareto.rs:102: scale * u^(-1/shape)) is ONE rounded multiplication of the parameter-free draw by the scale.  Hence, absent
   overflow, the sample is rnd(scale * g), within u |scale g| + eta of the real scale map, exactly scale * g when the scale is a
   power of two (AffineFl.Bmult_pow2_exact), non-negative for non-negative operands (C03), and monotone in g.                    *)
From Coq Require Import Reals Lra.
From Flocq Require Import Core.Core IEEE754.BinarySingleNaN.
From RD Require Import Proofs.AffineFl.
Open Scope R_scope.

Section Fmt.
Variable prec emax : Z.
Context (Hp : Prec_gt_0 prec) (Hpe : Prec_lt_emax prec emax).
Notation float := (binary_float prec emax).
Notation rnd := (AffineFl.rnd prec emax).
Notation u := (AffineFl.u prec).
Notation eta := (AffineFl.eta prec emax).

Definition scale_fl (a b : float) : float := Bmult mode_NE a b.

Theorem scale_fl_value (a b : float) :
  is_finite a = true -> is_finite b = true -> Rabs (rnd (B2R a * B2R b)) < bpow radix2 emax ->
  B2R (scale_fl a b) = rnd (B2R a * B2R b) /\ is_finite (scale_fl a b) = true.
Proof. exact (Bmult_value prec emax Hp Hpe a b). Qed.

Theorem scale_fl_error (a b : float) :
  is_finite a = true -> is_finite b = true -> Rabs (rnd (B2R a * B2R b)) < bpow radix2 emax ->
  Rabs (B2R (scale_fl a b) - B2R a * B2R b) <= u * Rabs (B2R a * B2R b) + eta.
Proof.
  intros Fa Fb O. destruct (scale_fl_value a b Fa Fb O) as [E _]. rewrite E. apply rnd_error. exact Hp.
Qed.

(* the two operand orders used in the source give the same real value *)
Theorem scale_fl_comm_value (a b : float) :
  is_finite a = true -> is_finite b = true -> Rabs (rnd (B2R a * B2R b)) < bpow radix2 emax ->
  B2R (scale_fl a b) = B2R (scale_fl b a).
Proof.
  intros Fa Fb O. destruct (scale_fl_value a b Fa Fb O) as [E _]. rewrite (Rmult_comm (B2R a)) in O.
  destruct (scale_fl_value b a Fb Fa O) as [E' _]. rewrite E, E', Rmult_comm. reflexivity.
Qed.

(* support: non-negative scale, non-negative draw -> non-negative sample *)
Theorem scale_fl_nonneg (a b : float) :
  is_finite a = true -> is_finite b = true -> Rabs (rnd (B2R a * B2R b)) < bpow radix2 emax ->
  0 <= B2R a -> 0 <= B2R b -> 0 <= B2R (scale_fl a b).
Proof.
  intros Fa Fb O Ha Hb. destruct (scale_fl_value a b Fa Fb O) as [E _]. rewrite E.
  apply (rnd_nonneg prec emax Hp), Rmult_le_pos; assumption.
Qed.

(* monotone in the draw for a non-negative scale: common random numbers preserve order *)
Theorem scale_fl_monotone (s g1 g2 : float) :
  is_finite s = true -> is_finite g1 = true -> is_finite g2 = true ->
  Rabs (rnd (B2R s * B2R g1)) < bpow radix2 emax -> Rabs (rnd (B2R s * B2R g2)) < bpow radix2 emax ->
  0 <= B2R s -> B2R g1 <= B2R g2 -> B2R (scale_fl s g1) <= B2R (scale_fl s g2).
Proof.
  intros Fs F1 F2 O1 O2 Hs H. destruct (scale_fl_value s g1 Fs F1 O1) as [E1 _]. destruct (scale_fl_value s g2 Fs F2 O2) as [E2 _].
  rewrite E1, E2. apply (rnd_mono prec emax Hp), Rmult_le_compat_l; assumption.
Qed.

(* a power-of-two scale commutes with the draw exactly (no rounding, barring underflow) *)
Theorem scale_fl_pow2 (s g : float) (k : Z) :
  is_finite s = true -> is_finite g = true -> B2R s = bpow radix2 k ->
  (B2R g = 0 \/ (0 <= k)%Z \/ bpow radix2 (aemin prec emax + prec - 1) <= Rabs (bpow radix2 k * B2R g)) ->
  Rabs (bpow radix2 k * B2R g) < bpow radix2 emax ->
  B2R (scale_fl s g) = bpow radix2 k * B2R g /\ is_finite (scale_fl s g) = true.
Proof. exact (Bmult_pow2_exact prec emax Hp Hpe s g k). Qed.

(* lower bound of the support: Pareto = scale * u^(-1/shape) with a factor >= 1 (whatever powf returns, as long as it is >= 1)
   never falls below the scale - exactly, no ulp *)
Theorem scale_fl_ge_scale (s g : float) :
  is_finite s = true -> is_finite g = true -> Rabs (rnd (B2R s * B2R g)) < bpow radix2 emax ->
  0 <= B2R s -> 1 <= B2R g -> B2R s <= B2R (scale_fl s g).
Proof.
  intros Fs Fg O Hs Hg. destruct (scale_fl_value s g Fs Fg O) as [E _]. rewrite E.
  apply (rnd_ge_B2R prec emax Hp). pose proof (Rmult_le_compat_l (B2R s) 1 (B2R g) Hs Hg). lra.
Qed.

(* the pre-computed reciprocals (exponential.rs:177 lambda_inverse = 1/lambda, weibull.rs:91 inv_shape = 1/shape,
   pareto.rs:90 inv_neg_shape = -1/shape) and the composite Exp(lambda) sample  Exp1 * (1/lambda) *)
Definition recip_fl (x : float) : float := Bdiv mode_NE Bone x.
Definition neg_recip_fl (x : float) : float := Bdiv mode_NE (Bopp Bone) x.

Theorem recip_fl_value (x : float) :
  is_finite x = true -> B2R x <> 0 -> Rabs (rnd (1 / B2R x)) < bpow radix2 emax ->
  B2R (recip_fl x) = rnd (1 / B2R x) /\ is_finite (recip_fl x) = true.
Proof.
  intros Fx Nx O. rewrite <- (Bone_correct prec emax Hp Hpe) in O |- * .
  exact (Bdiv_value prec emax Hp Hpe Bone x (is_finite_Bone prec emax Hp Hpe) Nx O).
Qed.

Theorem neg_recip_fl_value (x : float) :
  is_finite x = true -> B2R x <> 0 -> Rabs (rnd (- 1 / B2R x)) < bpow radix2 emax ->
  B2R (neg_recip_fl x) = rnd (- 1 / B2R x) /\ is_finite (neg_recip_fl x) = true.
Proof.
  intros Fx Nx O.
  assert (B2R (Bopp Bone : float) = - 1) as E by (rewrite B2R_Bopp, Bone_correct; reflexivity).
  rewrite <- E in O |- * . refine (Bdiv_value prec emax Hp Hpe (Bopp Bone) x _ Nx O).
  rewrite is_finite_Bopp. apply is_finite_Bone.
Qed.

Definition exp_sample_fl (g lambda : float) : float := scale_fl g (recip_fl lambda).

(* two roundings in the reals: the error D of x * fl(A) against x * A is |x| times that of fl(A); the second rounding adds
   u |x fl(A)| + eta with |x fl(A)| <= |x A| + D *)
Lemma rnd_mult_rnd_error (x A : R) :
  Rabs (rnd (x * rnd A) - x * A) <= (2 * u + u * u) * Rabs (x * A) + ((1 + u) * Rabs x + 1) * eta.
Proof.
  pose proof (rnd_error prec emax Hp A) as E1. pose proof (rnd_error prec emax Hp (x * rnd A)) as E2.
  pose proof (u_pos prec) as U0. pose proof (Rabs_pos x) as P.
  assert (Rabs (x * rnd A - x * A) <= Rabs x * (u * Rabs A + eta)) as D1.
  { rewrite <- Rmult_minus_distr_l, Rabs_mult. apply Rmult_le_compat_l; [exact P|exact E1]. }
  pose proof (Rabs_triang (x * A) (x * rnd A - x * A)) as D2.
  replace (x * A + (x * rnd A - x * A)) with (x * rnd A) in D2 by ring.
  replace (rnd (x * rnd A) - x * A) with ((rnd (x * rnd A) - x * rnd A) + (x * rnd A - x * A)) by ring.
  eapply Rle_trans; [apply Rabs_triang|]. rewrite (Rabs_mult x A) in * .
  assert (u * Rabs (x * rnd A) <= u * (Rabs x * Rabs A + Rabs x * (u * Rabs A + eta))) as D3
    by (apply Rmult_le_compat_l; lra).
  lra.
Qed.

Theorem exp_sample_fl_error (g lambda : float) :
  is_finite g = true -> is_finite lambda = true -> B2R lambda <> 0 ->
  Rabs (rnd (1 / B2R lambda)) < bpow radix2 emax ->
  Rabs (rnd (B2R g * rnd (1 / B2R lambda))) < bpow radix2 emax ->
  is_finite (exp_sample_fl g lambda) = true /\
  Rabs (B2R (exp_sample_fl g lambda) - B2R g / B2R lambda)
    <= (2 * u + u * u) * Rabs (B2R g / B2R lambda) + ((1 + u) * Rabs (B2R g) + 1) * eta.
Proof.
  intros Fg Fl Nl O1 O2. destruct (recip_fl_value lambda Fl Nl O1) as [Er Fr].
  rewrite <- Er in O2. destruct (scale_fl_value g (recip_fl lambda) Fg Fr O2) as [E F].
  split; [exact F|]. unfold exp_sample_fl. rewrite E, Er.
  replace (B2R g / B2R lambda) with (B2R g * (1 / B2R lambda)) by (field; exact Nl).
  apply rnd_mult_rnd_error.
Qed.
End Fmt.
