(* Proofs/PmfModelEvents.v — property C02 on the EXECUTABLE models of Model/Discrete.v: the inversion
   events of the samplers that are exact inverse transforms.  These theorems tie the R-level identities
   of Proofs/Pmf*.v (recurrence = pmf) to the decision trees that the correspondence runs against the
   crate: the model returns x exactly when the uniform draw falls into the x-th cell of the cdf.       *)
From Coq Require Import Reals List Lra Lia.
From Interval Require Import Xreal.
From Flocq Require Import Core.
From RD Require Import Base.Expr Base.Run Model.Sampler Model.Continuous Model.Discrete Proofs.LawsInvCdf
  Proofs.LoopBounds Proofs.PmfBinomial Proofs.PmfRatioModel Proofs.SupportDiscrete.
Import ListNotations.
Open Scope Z_scope.
Open Scope sampler_scope.

Import ExprNotations.
Local Open Scope R_scope.

(* BINV: Some x  <->  cdf(x-1) < u0 <= cdf(x) *)
Definition binv_cell (n : nat) (p U0 : R) (x0 : nat) (y : Z) : Prop :=
  exists x : nat, y = Z.of_nat x /\ (x0 <= x <= n)%nat /\
    (x = x0 \/ psum (binv_r n p) x < U0) /\ U0 <= psum (binv_r n p) (S x).

(* once cdf (x+1) < u0, the cell found from x+1 is the cell found from x *)
Lemma binv_cell_step n p U0 x y : psum (binv_r n p) (S x) < U0 -> binv_cell n p U0 (S x) y -> binv_cell n p U0 x y.
Proof.
  intros G (z & -> & R1 & R2 & R3). exists z. split; [reflexivity|]. split; [lia|]. split; [|exact R3].
  right. destruct R2 as [->|R2]; [exact G|exact R2].
Qed.

Lemma binv_inner_event (n : nat) p : 0 < p < 1 -> forall fuel a s u r (x : nat) ws U0,
  evalX a = Xreal ((INR n + 1) * (p / (1 - p))) -> evalX s = Xreal (p / (1 - p)) ->
  evalX r = Xreal (binv_r n p x) -> evalX u = Xreal (U0 - psum (binv_r n p) x) -> U0 < 1 -> (x <= n)%nat ->
  allout (fun q => snd q = ws /\ match fst q with Some y => binv_cell n p U0 x y
                                              | None => psum (binv_r n p) 111 < U0 end)
         (fun c => c = 2%Z) (binv_inner fuel a s u r (Z.of_nat x) ws).
Proof.
  intros Hp. induction fuel as [|f IH]; intros a s u r x ws U0 Ea Es Er Eu HU Hx; [reflexivity|].
  cbn [binv_inner]. lstep. apply (ask_values _ _ _ _ _ Eu Er). unfold rcmp.
  destruct (Rlt_dec (binv_r n p x) (U0 - psum (binv_r n p) x)) as [G|G]; lstep.
  2: { split; [reflexivity|]. exists x. cbn [psum]. repeat split; auto; lia || lra. }
  assert (psum (binv_r n p) (S x) < U0) as Gs by (cbn [psum]; lra).
  destruct (Z.ltb_spec 110 (Z.of_nat x + 1)) as [L|L]; lstep.
  - split; [reflexivity|]. apply Rle_lt_trans with (psum (binv_r n p) (S x)); [|exact Gs].
    apply psum_mono; [apply binv_r_nonneg, Hp|lia].
  - (* the terms sum to 1 > u0: the walk cannot pass n *)
    assert (x <> n) as NE by (intros ->; pose proof (binv_r_total n p Hp); lra).
    replace (Z.of_nat x + 1)%Z with (Z.of_nat (S x)) by lia.
    eapply allout_mono; [| |apply (IH a s _ _ (S x) ws U0 Ea Es)]; auto; try lia.
    + intros [[y|] rest] [A B]; (split; [exact A|]); [exact (binv_cell_step _ _ _ _ _ Gs B)|exact B].
    + rewrite (mul_eval _ _ _ _ Er (btpe_g_eval _ _ _ _ (S x) ltac:(lia) Ea Es)). reflexivity.
    + rewrite (sub_eval _ _ _ _ Eu Er). cbn [psum]. f_equal. ring.
Qed.

(* the cells are disjoint and the terms are the binomial probabilities: the event above determines x *)
Lemma binv_cell_pmf (n : nat) p U0 y : 0 < p < 1 -> 0 < U0 -> binv_cell n p U0 0 y ->
  exists x : nat, y = Z.of_nat x /\ (x <= n)%nat /\
    psum (fun j => C n j * p ^ j * (1 - p) ^ (n - j)) x < U0 <= psum (fun j => C n j * p ^ j * (1 - p) ^ (n - j)) (S x).
Proof.
  intros Hp HU (x & -> & Hx & Hlo & Hhi). exists x. split; [reflexivity|]. split; [lia|].
  rewrite <- !(psum_ext (binv_r n p) (fun j => C n j * p ^ j * (1 - p) ^ (n - j)))
    by (intros; apply binv_recurrence; [assumption|lia]).
  split; [|exact Hhi]. destruct Hlo as [->|H]; [cbn; exact HU|exact H].
Qed.

(* Knuth: k  <->  u_1 ... u_k > exp(-lambda) >= u_1 ... u_(k+1) *)
Fixpoint prodR (us : list R) : R := match us with [] => 1 | u :: r => u * prodR r end.

Lemma prodR_app us u : prodR (us ++ [u]) = prodR us * u.
Proof. induction us as [|a us IH]; cbn; [ring|rewrite IH; ring]. Qed.

Lemma skipn_cons {A} (l : list A) : forall n w r, skipn n l = w :: r ->
  skipn (S n) l = r /\ firstn (S n) l = firstn n l ++ [w] /\ (n < length l)%nat.
Proof.
  induction l as [|a l IH]; intros [|n] w r E; try discriminate E.
  - injection E as -> ->. cbn. repeat split. lia.
  - destruct (IH n w r E) as (E1 & E2 & E3). cbn [firstn app length]. rewrite <- E2. repeat split; [exact E1|lia].
Qed.

(* state: the first n words of `all` have been drawn (result = n), p is the product of their uniforms, and all
   proper prefixes exceeded exp(-lambda) *)
Lemma knuth_loop_event t el EL all fuel : forall p n, evalX el = Xreal EL ->
  evalX p = Xreal (prodR (map (uR_std t) (firstn n all))) -> (1 <= n <= length all)%nat ->
  (forall j, (0 < j < n)%nat -> EL < prodR (map (uR_std t) (firstn j all))) ->
  allout (fun q => exists m : nat, (n <= m <= length all)%nat /\ fst q = (Z.of_nat m - 1)%Z /\ snd q = skipn m all /\
            (forall j, (0 < j < m)%nat -> EL < prodR (map (uR_std t) (firstn j all))) /\
            prodR (map (uR_std t) (firstn m all)) <= EL)
         nopanic (knuth_loop fuel t el p (Z.of_nat n) (skipn n all)).
Proof.
  induction fuel as [|f IH]; intros p n Eel Ep Hn Hpre; [exact nopanic2|].
  cbn [knuth_loop]. lstep. apply (ask_values _ _ _ _ _ Ep Eel). unfold rcmp.
  destruct (Rlt_dec EL _) as [G|G]; lstep.
  - destruct (skipn n all) as [|w ws] eqn:Es; lstep; [exact nopanic1|].
    destruct (skipn_cons _ _ _ _ Es) as (Es' & Ef & Hl).
    replace (Z.of_nat n + 1)%Z with (Z.of_nat (S n)) by lia. rewrite <- Es'.
    eapply allout_mono; [| |apply IH]; auto; try lia.
    + intros q (m & Hm & R). exists m. split; [lia|exact R].
    + rewrite Ef, map_app. cbn [map]. rewrite prodR_app. cbn [evalX xbin]. rewrite Ep, u_std_eval. reflexivity.
    + intros j Hj. destruct (Nat.eq_dec j n) as [->|NE]; [exact G|apply Hpre; lia].
  - exists n. repeat split; auto; try lia. lra.
Qed.

(* Knuth's method as called (first uniform drawn before the loop): the model returns k after reading
   exactly k+1 words w_1 .. w_(k+1) with  u_1 ... u_j > exp(-lambda) for j <= k  and  u_1 ... u_(k+1) <= exp(-lambda) *)
Theorem knuth_event t lambda LAM ws : evalX lambda = Xreal LAM -> Forall word ws ->
  allout (fun q => exists m : nat, (1 <= m <= length ws)%nat /\ fst q = (Z.of_nat m - 1)%Z /\ snd q = skipn m ws /\
            (forall j, (0 < j < m)%nat -> exp (- LAM) < prodR (map (uR_std t) (firstn j ws))) /\
            prodR (map (uR_std t) (firstn m ws)) <= exp (- LAM))
         nopanic (knuth t lambda ws).
Proof.
  intros El _. unfold knuth. destruct ws as [|w ws]; [exact nopanic1|]. rewrite draw_std_cons.
  apply (knuth_loop_event t _ (exp (- LAM)) (w :: ws) 1024 _ 1).
  - unfold eexp, eneg. cbn [evalX xun]. rewrite El. reflexivity.
  - cbn. rewrite Rmult_1_r. apply u_std_eval.
  - cbn [length]. lia.
  - intros j Hj. lia.
Qed.

(* HIN: x  <->  cdf cell of the hypergeometric pmf (walk started at x0 with p = pmf(x0)) *)
From RD Require Import Proofs.PmfHyper.

Section Hin.
Variables (n1 n2 k x0 : nat).
Hypothesis Hk : (k <= n2)%nat.
Let h (x : nat) : R := hyper_pmf (n1 + n2) n1 k x.
Let t : nat := Nat.min n1 k.

Definition hin_cell (U0 : R) (x : nat) (y : Z) : Prop :=
  exists z : nat, y = Z.of_nat z /\ (x <= z <= t)%nat /\
    (z = x \/ psum h z - psum h x0 < U0) /\ (U0 <= psum h (S z) - psum h x0 \/ z = t).

(* the update of p is the recurrence  h (x+1) = h x * (n1 - x) (k - x) / ((x + 1) (n2 - k + 1 + x)) *)
Lemma hin_p_step p (x : nat) : (x < t)%nat -> evalX p = Xreal (h x) ->
  evalX (p *. zf ((Z.of_nat n1 - Z.of_nat x) * (Z.of_nat k - Z.of_nat x))
           /. zf ((Z.of_nat x + 1) * (Z.of_nat n2 - Z.of_nat k + 1 + Z.of_nat x))) = Xreal (h (S x)).
Proof.
  intros Lt Ep. assert (S x <= n1 /\ S x <= k)%nat as [A1 A2] by (unfold t in Lt; lia).
  pose proof (pos_INR x). pose proof (le_INR _ _ Hk).
  unfold h. rewrite (hin_recurrence n1 n2 k x A1 A2) by lia.
  replace (_ / _) with (h x * ((INR n1 - INR x) * (INR k - INR x)) / ((INR x + 1) * (INR n2 - INR k + 1 + INR x)))
    by (unfold h; field; split; lra).
  apply div_eval; [apply mul_eval; [exact Ep|]| |apply Rgt_not_eq, Rmult_lt_0_compat; lra];
    rewrite zf_eval, mult_IZR, ?minus_IZR, ?plus_IZR, ?minus_IZR, ?INR_Z; reflexivity.
Qed.

(* once cdf (x+1) < u0, the cell found from x+1 is the cell found from x *)
Lemma hin_cell_step U0 x y : psum h (S x) - psum h x0 < U0 -> hin_cell U0 (S x) y -> hin_cell U0 x y.
Proof.
  intros G (z & -> & R1 & R2 & R3). exists z. split; [reflexivity|]. split; [lia|]. split; [|exact R3].
  right. destruct R2 as [->|R2]; [exact G|exact R2].
Qed.

Lemma hin_loop_event fuel : forall u p (x : nat) ws U0,
  evalX p = Xreal (h x) -> evalX u = Xreal (U0 - (psum h x - psum h x0)) -> (x0 <= x <= t)%nat ->
  allout (fun q => snd q = ws /\ hin_cell U0 x (fst q)) (fun c => c = 2%Z)
         (hin_loop fuel (Z.of_nat n1) (Z.of_nat n2) (Z.of_nat k) u p (Z.of_nat x) ws).
Proof.
  induction fuel as [|f IH]; intros u p x ws U0 Ep Eu Hx; [reflexivity|].
  cbn [hin_loop]. lstep. apply (ask_values _ _ _ _ _ Eu Ep). unfold rcmp.
  replace (Z.min (Z.of_nat n1) (Z.of_nat k)) with (Z.of_nat t) by (unfold t; lia).
  destruct (Rlt_dec (h x) (U0 - (psum h x - psum h x0))) as [G|G]; cbn [andb].
  - destruct (Z.ltb_spec (Z.of_nat x) (Z.of_nat t)) as [L|L].
    + replace (Z.of_nat x + 1)%Z with (Z.of_nat (S x)) by lia.
      eapply allout_mono; [| |apply (IH _ _ (S x) ws U0)]; auto; try lia.
      * intros q [A B]. split; [exact A|]. apply hin_cell_step; [cbn [psum]; lra|exact B].
      * replace (Z.of_nat (S x)) with (Z.of_nat x + 1)%Z by lia. apply hin_p_step; [lia|exact Ep].
      * rewrite (sub_eval _ _ _ _ Eu Ep). cbn [psum]. f_equal. ring.
    + lstep. split; [reflexivity|]. exists x. repeat split; auto; lia.
  - lstep. split; [reflexivity|]. exists x. cbn [psum]. repeat split; auto; try lia. left. lra.
Qed.
End Hin.

Local Open Scope R_scope.
(* p >= 2/3: the model returns `failures0 + d` after exactly d+1 words: the first d uniforms exceed p, the next does not *)
Lemma geo_trivial_event fuel : forall p P failures ws, evalX p = Xreal P -> Forall word ws ->
  allout (fun q => exists d : nat, (d < fuel)%nat /\ (d < length ws)%nat /\ fst q = (failures + Z.of_nat d)%Z /\ snd q = skipn (S d) ws /\
            (forall j, (j < d)%nat -> P < uR_std F64 (nth j ws 0%Z)) /\ uR_std F64 (nth d ws 0%Z) <= P)
         nopanic (geo_trivial fuel p failures ws).
Proof.
  induction fuel as [|f IH]; intros p P failures ws Ep Hw; [exact nopanic2|].
  destruct ws as [|w ws]; cbn [geo_trivial]; lstep; [exact nopanic1|].
  apply (ask_values _ _ _ _ _ (u_std_eval F64 w) Ep).
  unfold rcmp. destruct (Rle_dec (uR_std F64 w) P) as [G|G]; lstep.
  - exists 0%nat. cbn [length nth skipn fst snd]. repeat split; try lia; try (intros j Hj; lia); exact G.
  - eapply allout_mono; [| |apply (IH p P (failures + 1)%Z ws Ep (Forall_inv_tail Hw))]; [|auto].
    intros [r rest]; cbn [fst snd]. intros (d & D1 & D2 & -> & -> & D3 & D4).
    exists (S d). cbn [length nth skipn]. repeat split; try lia; [|exact D4].
    intros j Hj. destruct j as [|j]; cbn [nth]; [lra|apply D3; lia].
Qed.

(* the quotient part D of the power-of-two split: d = number of leading uniforms below pi = (1-p)^(2^k) *)
Lemma geo_d_event fuel : forall pi PI failures ws, evalX pi = Xreal PI -> Forall word ws ->
  allout (fun q => exists d : nat, (d < fuel)%nat /\ (d < length ws)%nat /\ fst q = (failures + Z.of_nat d)%Z /\ snd q = skipn (S d) ws /\
            (forall j, (j < d)%nat -> uR_std F64 (nth j ws 0%Z) < PI) /\ PI <= uR_std F64 (nth d ws 0%Z))
         nopanic (geo_d fuel pi failures ws).
Proof.
  induction fuel as [|f IH]; intros pi PI failures ws Ep Hw; [exact nopanic2|].
  destruct ws as [|w ws]; cbn [geo_d]; lstep; [exact nopanic1|].
  apply (ask_values _ _ _ _ _ (u_std_eval F64 w) Ep).
  unfold rcmp. destruct (Rlt_dec (uR_std F64 w) PI) as [G|G]; lstep.
  - eapply allout_mono; [| |apply (IH pi PI (failures + 1)%Z ws Ep (Forall_inv_tail Hw))]; [|auto].
    intros [r rest]; cbn [fst snd]. intros (d & D1 & D2 & -> & -> & D3 & D4).
    exists (S d). cbn [length nth skipn]. repeat split; try lia; [|exact D4].
    intros j Hj. destruct j as [|j]; cbn [nth]; [exact G|apply D3; lia].
  - exists 0%nat. cbn [length nth skipn fst snd]. repeat split; try lia; try (intros j Hj; lia); lra.
Qed.

(* Zeta: every returned x was proposed as floor(u^(-1/(s-1))) and accepted with v <= zeta_accept (s-1) x *)
From RD Require Import Proofs.PmfZeta.

(* the two sides of the acceptance test  v x (t - 1) b <= t (b - 1),  t = (1 + 1/x)^(s-1), b = 2^(s-1) *)
Lemma zeta_test_eval sm SM v V x : evalX sm = Xreal SM -> evalX v = Xreal V -> 1 <= IZR x ->
  let tt := epow (one +. one /. num x) sm in let b := epow (num 2) sm in
  evalX (v *. num x *. (tt -. one) *. b) = Xreal (V * IZR x * (zeta_t SM (IZR x) - 1) * zeta_b SM) /\
  evalX (tt *. (b -. one)) = Xreal (zeta_t SM (IZR x) * (zeta_b SM - 1)).
Proof.
  intros Esm Ev Hx tt b.
  assert (Ett : evalX tt = Xreal (zeta_t SM (IZR x))).
  { apply pow_eval; [|exact Esm|assert (0 < 1 / IZR x) by (apply Rdiv_lt_0_compat; lra); lra].
    apply add_eval; [apply one_eval|apply div_eval; [apply one_eval|apply num_eval|lra]]. }
  assert (Eb : evalX b = Xreal (zeta_b SM)) by (apply pow_eval; [apply num_eval|exact Esm|lra]).
  split; cbn [evalX xbin]; rewrite ?Ev, ?num_eval, Ett, Eb, one_eval; reflexivity.
Qed.

Lemma zeta_loop_event fuel : forall t s ws, 1 < dyR s -> Forall word ws ->
  allout (fun q => fst q = (-1)%Z \/
            exists U V, 0 < U <= 1 /\ 0 <= V < 1 /\ fst q = Zfloor (Rpower U (- 1 / (dyR s - 1))) /\ (1 <= fst q)%Z /\
                        V <= zeta_accept (dyR s - 1) (IZR (fst q)))
         nopanic (zeta_loop fuel t (dyx s -. one) (epow (num 2) (dyx s -. one)) ws).
Proof.
  induction fuel as [|f IH]; intros t s ws Hs Hw; [exact nopanic2|].
  destruct Hw as [|w ws Hw0 Hws]; cbn [zeta_loop]; lstep; [exact nopanic1|].
  pose proof (uR_oc_range t w Hw0) as HU. pose proof (zeta_proposal_eval t s w Hs Hw0) as Exe.
  intros xv yv _ _. destruct (rcmp CGe xv yv); lstep; [left; reflexivity|].
  apply (sfloor_value _ _ _ _ _ _ Exe).
  set (x := Zfloor (Rpower (uR_oc t w) (-1 / (dyR s - 1)))).
  assert (1 <= x)%Z as Hx1 by (apply Zfloor_lub, (zeta_proposal_ge_1 (dyR s) (uR_oc t w) Hs HU)).
  assert (1 <= IZR x) as Hx1R by (apply (IZR_le 1); exact Hx1).
  destruct Hws as [|w2 ws2 Hw2 Hws2]; lstep; [exact nopanic1|].
  pose proof (uR_std_range t w2 Hw2) as HV.
  destruct (zeta_test_eval _ _ _ _ x (sm1_eval s) (u_std_eval t w2) Hx1R) as [El Er].
  apply (ask_values _ _ _ _ _ El Er).
  unfold rcmp. destruct (Rle_dec _ _) as [G|_]; lstep; [|apply IH; assumption].
  right. exists (uR_oc t w), (uR_std t w2). repeat split; try lra; try assumption.
  apply (zeta_accept_test (dyR s) (IZR x) (uR_std t w2) Hs ltac:(lra)). exact G.
Qed.
