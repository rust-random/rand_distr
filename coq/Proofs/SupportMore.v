(* Proofs/SupportMore.v — property C03 on the ideal real-number models of Model/Continuous.v, the
   positive-support families not covered by Proofs/Support.v: LogNormal (> 0), FisherF (>= 0),
   InverseGaussian (> 0, both roots of Michael-Schucany-Haas), StudentT / Normal / ... have support R. *)
From Coq Require Import Reals List Lra.
From Interval Require Import Xreal.
From RD Require Import Base.Expr Base.Run Model.Sampler Model.Continuous Proofs.LawsInvCdf Proofs.Support
  Proofs.RejectIdentities.
Open Scope Z_scope.
Open Scope sampler_scope.

Import ExprNotations.
Local Open Scope R_scope.

(* LogNormal: exp of anything defined is positive *)
Theorem lognormal_pos t mu sigma ws e rest x :
  evals (lognormal t mu sigma ws) (e, rest) -> evalX e = Xreal x -> 0 < x.
Proof.
  intros E. refine (allsem_elim (fun p => dpos (fst p)) _ _ _ E x).
  unfold lognormal, sbind. apply allsem_bind_any. intros [z ws']. exact (dpos_exp _).
Qed.

(* the unread words stay 64-bit words (needed to chain two samplers) *)
Definition wordsP {A} (p : A * list Z) : Prop := Forall word (snd p).

(* a sampler built from the monad's operations hands on a tail of the words it was given *)
Definition keeps_words {A} (m : sampler A) : Prop := forall ws, Forall word ws -> allsem wordsP (m ws).

Lemma kw_ret {A} (a : A) : keeps_words (sret a).
Proof. intros ws H. exact H. Qed.
Lemma kw_fail {A} c : keeps_words (@sfail A c).
Proof. intros ws H. exact I. Qed.
Lemma kw_ask c a b : keeps_words (sask c a b).
Proof. intros ws H x y _ _. exact H. Qed.
Lemma kw_next : keeps_words next_word.
Proof. intros ws H. destruct H; [exact I|assumption]. Qed.
Lemma kw_bind {A B} (m : sampler A) (k : A -> sampler B) :
  keeps_words m -> (forall a, keeps_words (k a)) -> keeps_words (sbind m k).
Proof. intros Hm Hk ws H. eapply allsem_sbind; [apply Hm, H|]. intros a ws' H'. apply Hk, H'. Qed.
Lemma kw_if {A} (b : bool) (m1 m2 : sampler A) : keeps_words m1 -> keeps_words m2 -> keeps_words (if b then m1 else m2).
Proof. destruct b; auto. Qed.
Create HintDb kw.
#[local] Hint Resolve kw_ret kw_fail kw_ask kw_next kw_bind kw_if : kw.

Lemma kw_draw_open t : keeps_words (draw_open t).
Proof. unfold draw_open. auto with kw. Qed.
Lemma kw_norm_tail fuel : keeps_words (norm_tail fuel).
Proof. induction fuel; cbn [norm_tail]; auto 8 with kw. Qed.
Lemma kw_norm_zero um u : keeps_words (norm_zero um u).
Proof. unfold norm_zero. auto using kw_norm_tail with kw. Qed.
Lemma kw_exp_zero um u : keeps_words (exp_zero um u).
Proof. unfold exp_zero. auto with kw. Qed.
Lemma kw_zig fuel sym X Fv pdf zc : (forall um u, keeps_words (zc um u)) -> keeps_words (zig fuel sym X Fv pdf zc).
Proof. intros Hz. induction fuel; cbn [zig]; auto 12 with kw. Qed.
Lemma kw_std_normal t : keeps_words (std_normal t).
Proof. destruct t; cbn [std_normal]; unfold std_normal64; auto using kw_zig, kw_norm_zero with kw. Qed.
Lemma kw_exp1 t : keeps_words (exp1 t).
Proof. destruct t; cbn [exp1]; unfold exp1_64; auto using kw_zig, kw_exp_zero with kw. Qed.
Lemma kw_gamma_unscaled fuel t c d : keeps_words (gamma_unscaled fuel t c d).
Proof. induction fuel; cbn [gamma_unscaled]; auto 16 using kw_std_normal, kw_draw_open with kw. Qed.
Lemma kw_gamma_e t lt1 eq1 shape scale : keeps_words (gamma_e t lt1 eq1 shape scale).
Proof.
  unfold gamma_e, gamma_large_consts. destruct eq1, lt1; auto 8 using kw_exp1, kw_draw_open, kw_gamma_unscaled with kw.
Qed.

Lemma std_normal_words t ws : Forall word ws -> allsem wordsP (std_normal t ws).
Proof. apply kw_std_normal. Qed.
Lemma chi_squared_words t k ws : Forall word ws -> allsem wordsP (chi_squared t k ws).
Proof.
  revert ws. change (keeps_words (chi_squared t k)). unfold chi_squared.
  destruct (dy_eqb k (1, 0)%Z); auto using kw_std_normal, kw_gamma_e with kw.
Qed.

Lemma chi_squared_leaves t k ws : 0 < dyR k -> Forall word ws ->
  allsem (fun p => dnn (fst p) /\ Forall word (snd p)) (chi_squared t k ws).
Proof.
  intros Hk Hw. apply allsem_and; [|apply chi_squared_words, Hw].
  apply allsem_evals. intros [e rest] E x. exact (chi_squared_nonneg t k ws e rest x Hk Hw E).
Qed.

(* FisherF(m, n) = (chi2_m / chi2_n) * (n / m) >= 0 whenever defined *)
Theorem fisher_f_nonneg t m n ws e rest x :
  0 < dyR m -> 0 < dyR n -> Forall word ws ->
  evals (fisher_f t m n ws) (e, rest) -> evalX e = Xreal x -> 0 <= x.
Proof.
  intros Hm Hn Hw E. refine (allsem_elim (fun p => dnn (fst p)) _ _ _ E x).
  unfold fisher_f. eapply allsem_sbind; [apply (chi_squared_leaves t m ws Hm Hw)|].
  intros a ws1 [Ha Hw1].
  eapply allsem_sbind; [apply (chi_squared_leaves t n ws1 Hn Hw1)|].
  intros b ws2 [Hb _]. sstep.
  apply dnn_mul; [apply dnn_div; assumption|]. apply dpos_dnn, dpos_div; apply dpos_dyx; assumption.
Qed.

(* InverseGaussian(mean, shape) > 0: both roots of the Michael-Schucany-Haas quadratic are positive *)
Theorem inverse_gaussian_pos t mean shape ws e rest x :
  0 < dyR mean -> 0 < dyR shape ->
  evals (inverse_gaussian t mean shape ws) (e, rest) -> evalX e = Xreal x -> 0 < x.
Proof.
  intros Hmu Hl E. refine (allsem_elim (fun p => dpos (fst p)) _ _ _ E x).
  unfold inverse_gaussian, inverse_gaussian_e, sbind at 1. apply allsem_bind_any. intros [v ws1].
  set (MU := dyR mean) in * . set (L := dyR shape) in * .
  (* the smaller root, when defined, is ig_x1 *)
  assert (X1 : dpos (dyx mean +. dyx mean /. (num 2 *. dyx shape) *.
                   (dyx mean *. v *. v -. esqrt (num 4 *. dyx shape *. (dyx mean *. v *. v) +. dyx mean *. v *. v *. (dyx mean *. v *. v))))).
  { intros y Ey. cbn [evalX xbin xun esqrt] in Ey. rewrite !dyx_eval, !num_eval in Ey. fold MU L in Ey.
    change (Xreal 2 * Xreal L)%XR with (Xreal (2 * L)) in Ey. rewrite Xdiv_nz in Ey by lra.
    destruct (evalX v) as [|rv]; [discriminate|]. injection Ey as <-. apply (ig_x1_pos MU L rv Hmu Hl). }
  destruct ws1 as [|w ws2]; sstep; [exact I|].
  intros x0 y0 _ _. destruct (rcmp CLe x0 y0); sstep; [exact X1|].
  apply dpos_div; [|exact X1]. apply dpos_mul; apply dpos_dyx, Hmu.
Qed.
