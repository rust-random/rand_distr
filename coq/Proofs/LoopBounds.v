(* Proofs/LoopBounds.v — property C05 on the discrete sampler models of Model/Discrete.v: the inner
   loops never exhaust their fuel for valid parameters (failure code 2 is unreachable, or reachable
   only on explicitly characterised word lists) and the number of 64-bit words consumed is bounded.

   `evals r v` (Base/Run.v) says that the exact semantics of the tree r returns v; its companion
   `fails r c` (below) says that the exact semantics reaches the leaf `Fail c`.  `allout P Q r` is
   the structural predicate "every returned value satisfies P and every reachable failure code
   satisfies Q" (the two-sided version of `allsem` of Proofs/Support.v).                          *)
From Coq Require Import Reals ZArith List Lra Lia Bool.
From Interval Require Import Xreal.
From Flocq Require Import Core.
From RD Require Import Base.Expr Base.Run Model.Sampler Model.Continuous Model.Discrete Proofs.LawsInvCdf
  Proofs.Support Proofs.LoopBoundsFloat.
Import ListNotations.
Open Scope Z_scope.
Open Scope sampler_scope.

Import ExprNotations.

Inductive fails {A} : run A -> Z -> Prop :=
| FlFail code : fails (Fail code) code
| FlAsk c a b k x y code : evalX a = Xreal x -> evalX b = Xreal y -> fails (k (rcmp c x y)) code ->
    fails (Ask c a b k) code
| FlFloor e k x code : evalX e = Xreal x -> fails (k (Zfloor x)) code -> fails (AskFloor e k) code.

Fixpoint allout {A} (P : A -> Prop) (Q : Z -> Prop) (r : run A) : Prop :=
  match r with
  | Ret a => P a
  | Ask c a b k => forall x y, evalX a = Xreal x -> evalX b = Xreal y -> allout P Q (k (rcmp c x y))
  | AskFloor e k => forall x, evalX e = Xreal x -> allout P Q (k (Zfloor x))
  | Fail c => Q c
  end.

Lemma allout_spec {A} (P : A -> Prop) (Q : Z -> Prop) r :
  allout P Q r <-> (forall v, evals r v -> P v) /\ (forall c, fails r c -> Q c).
Proof.
  split.
  - intros H. split.
    + intros v E. induction E; cbn in H; auto.
    + intros c E. induction E; cbn in H; auto.
  - induction r as [a|c a b k IH|e k IH|c]; cbn; intros [H1 H2].
    + apply H1. constructor.
    + intros x y Hx Hy. apply IH. split.
      * intros v E. apply H1. eapply EvAsk; eauto.
      * intros c' E. apply H2. eapply FlAsk; eauto.
    + intros x Hx. apply IH. split.
      * intros v E. apply H1. eapply EvFloor; eauto.
      * intros c' E. apply H2. eapply FlFloor; eauto.
    + apply H2. constructor.
Qed.
Lemma allout_evals {A} (P : A -> Prop) Q r v : allout P Q r -> evals r v -> P v.
Proof. intros H. apply allout_spec in H. now apply H. Qed.
Lemma allout_fails {A} (P : A -> Prop) Q r c : allout P Q r -> fails r c -> Q c.
Proof. intros H. apply allout_spec in H. now apply H. Qed.
Lemma allout_mono {A} (P P' : A -> Prop) (Q Q' : Z -> Prop) r :
  (forall a, P a -> P' a) -> (forall c, Q c -> Q' c) -> allout P Q r -> allout P' Q' r.
Proof. intros H1 H2. induction r; cbn; auto. Qed.
Lemma allout_bind {A B} (P : B -> Prop) Q (r : run A) (k : A -> run B) :
  allout (fun a => allout P Q (k a)) Q r -> allout P Q (bind r k).
Proof. induction r; cbn; auto. Qed.
Lemma allout_sbind {A B} (P : A * list Z -> Prop) (P' : B * list Z -> Prop) (Q Q' : Z -> Prop) (m : sampler A) (k : A -> sampler B) ws :
  allout P Q (m ws) -> (forall c, Q c -> Q' c) -> (forall a ws', P (a, ws') -> allout P' Q' (k a ws')) ->
  allout P' Q' (sbind m k ws).
Proof.
  intros Hm HQ Hk. unfold sbind. apply allout_bind. eapply allout_mono; [| |exact Hm]; [|exact HQ].
  intros [a ws'] Ha. apply Hk, Ha.
Qed.
Ltac lstep := cbn [sbind bind draw_open draw_std draw_oc next_word sret sask sfail allout negb fst snd].

(* `lstep` stops at a comparison with a goal of the form  forall x y, evalX a = Xreal x -> evalX b = Xreal y -> G x y ;
   when the values of the operands are known they are put in by `apply (ask_values _ _ _ _ _ Ea Eb)` *)
Lemma ask_values a b x y (G : R -> R -> Prop) : evalX a = Xreal x -> evalX b = Xreal y -> G x y ->
  forall x' y', evalX a = Xreal x' -> evalX b = Xreal y' -> G x' y'.
Proof.
  intros Ea Eb H x' y' Ea' Eb'. rewrite Ea in Ea'. rewrite Eb in Eb'. injection Ea' as <-. injection Eb' as <-. exact H.
Qed.

(* a tree is either defined, failing, or stuck on an undefined expression; never both of the first two:
   the exact semantics follows one path *)
Lemma evals_allout {A} (r : run A) v : evals r v -> allout (eq v) (fun _ => False) r.
Proof.
  induction 1 as [a|c a b k x y v Ea Eb _ IH|e k x v Ee _ IH]; cbn [allout];
    [reflexivity|exact (ask_values _ _ _ _ _ Ea Eb IH)|].
  intros x' Ee'. rewrite Ee in Ee'. injection Ee' as <-. exact IH.
Qed.
Lemma evals_fails_excl {A} (r : run A) v c : evals r v -> fails r c -> False.
Proof. intros E. exact (allout_fails _ _ _ _ (evals_allout r v E)). Qed.

Definition nat_lt_fuel (n : nat) (ws : list Z) : Prop := (length ws < n)%nat.

Lemma lz64_range w : word w -> 0 <= leading_zeros64 w <= 64 /\ (leading_zeros64 w = 64 <-> w = 0).
Proof.
  intros [H0 H1]. unfold leading_zeros64. destruct (Z.leb_spec w 0) as [L|L].
  - split; [lia|]. split; lia.
  - pose proof (Z.log2_nonneg w). assert (Z.log2 w < 64) by (apply Z.log2_lt_pow2; lia).
    split; [lia|]. split; lia.
Qed.

(* the loop returns result + 64 j + lz(w_j) after reading j zero words and one nonzero word; it runs
   out of fuel only when the first `fuel` words are all zero *)
Definition std_geo_post (fuel : nat) (result : Z) (ws : list Z) (p : Z * list Z) : Prop :=
  result <= fst p /\ (fst p - result) / 64 < Z.of_nat fuel /\
  length ws = (length (snd p) + Z.to_nat ((fst p - result) / 64) + 1)%nat.
Definition std_geo_fail (fuel : nat) (ws : list Z) (c : Z) : Prop :=
  (c = 1 /\ (length ws < fuel)%nat /\ Forall (fun w => w = 0) ws) \/
  (c = 2 /\ (fuel <= length ws)%nat /\ Forall (fun w => w = 0) (firstn fuel ws)).

Lemma std_geometric_loop_spec fuel : forall result ws, Forall word ws ->
  allout (std_geo_post fuel result ws) (std_geo_fail fuel ws) (std_geometric_loop fuel result ws).
Proof.
  induction fuel as [|f IH]; intros result ws Hw.
  - cbn. right. split; [reflexivity|]. split; [lia|constructor].
  - destruct ws as [|w ws']; cbn [std_geometric_loop]; lstep.
    + left. split; [reflexivity|]. split; [cbn; lia|constructor].
    + inversion Hw as [|? ? Hb Hws]; subst. destruct (lz64_range w Hb) as [R Z0].
      destruct (Z.ltb_spec (leading_zeros64 w) 64) as [L|L]; lstep.
      * unfold std_geo_post. cbn [fst snd length]. Z.div_mod_to_equations. lia.
      * assert (leading_zeros64 w = 64) as E by lia. rewrite E. apply Z0 in E. subst w.
        eapply allout_mono; [| |apply (IH (result + 64) ws' Hws)].
        -- intros [x rest]. unfold std_geo_post. cbn [fst snd length]. Z.div_mod_to_equations. lia.
        -- intros c [(C1 & C2 & C3)|(C1 & C2 & C3)]; [left|right]; (split; [exact C1|]); cbn [length firstn];
             (split; [lia|constructor; auto]).
Qed.

Theorem std_geometric_loop_words fuel result ws x rest : Forall word ws ->
  evals (std_geometric_loop fuel result ws) (x, rest) ->
  result <= x /\ (x - result) / 64 < Z.of_nat fuel /\
  length ws = (length rest + Z.to_nat ((x - result) / 64) + 1)%nat.
Proof. intros Hw E. exact (allout_evals _ _ _ _ (std_geometric_loop_spec fuel result ws Hw) E). Qed.
(* StandardGeometric: the result x is nonnegative and exactly x / 64 + 1 words are consumed *)
Theorem std_geometric_words ws x rest : Forall word ws -> evals (std_geometric ws) (x, rest) ->
  0 <= x < 64 * 64 /\ length ws = (length rest + Z.to_nat (x / 64) + 1)%nat.
Proof.
  intros Hw E. pose proof (allout_evals _ _ _ _ (std_geometric_loop_spec 64 0 ws Hw) E) as (A & B & C).
  cbn [fst snd] in * . rewrite Z.sub_0_r in * . change (Z.of_nat 64) with 64 in B. split; [|exact C].
  Z.div_mod_to_equations. lia.
Qed.
(* the fuel (64 iterations) is exhausted only by 64 consecutive zero words *)
Theorem std_geometric_fuel ws : Forall word ws -> fails (std_geometric ws) 2 ->
  (64 <= length ws)%nat /\ Forall (fun w => w = 0) (firstn 64 ws).
Proof.
  intros Hw E. destruct (allout_fails _ _ _ _ (std_geometric_loop_spec 64 0 ws Hw) E) as [(C & _)|(_ & A & B)].
  - discriminate C.
  - split; assumption.
Qed.
Corollary std_geometric_no_fuel_exhaustion ws : Forall word ws -> (exists w, In w (firstn 64 ws) /\ w <> 0) ->
  ~ fails (std_geometric ws) 2.
Proof.
  intros Hw [w [Hi Hn]] E. destruct (std_geometric_fuel ws Hw E) as [_ F].
  rewrite Forall_forall in F. apply Hn, F, Hi.
Qed.

(* BINV (Binomial): the inner loop reads no word, cannot fail, returns Some x with x <= 110 or None, and needs at most
   111 - x evaluations of its condition: fuel >= 111 - x (the model gives 112 from x = 0) is never exhausted *)
Lemma binv_inner_spec fuel : forall a s u r x ws, 0 <= x <= 110 -> 111 - x <= Z.of_nat fuel ->
  allout (fun p => snd p = ws /\ match fst p with Some y => x <= y <= 110 | None => True end) (fun _ => False)
         (binv_inner fuel a s u r x ws).
Proof.
  induction fuel as [|f IH]; intros a s u r x ws Hx Hf; [lia|].
  cbn [binv_inner]. lstep. intros x0 y0 _ _. destruct (rcmp CGt x0 y0); lstep.
  - destruct (Z.ltb_spec 110 (x + 1)) as [L|L]; lstep.
    + split; [reflexivity|exact I].
    + eapply allout_mono; [| |apply IH; lia]; [|auto].
      intros [[y|] rest]; cbn [fst snd]; intros [A B]; (split; [exact A|]); [lia|exact I].
  - split; [reflexivity|lia].
Qed.
Theorem binv_inner_no_fuel_exhaustion fuel a s u r ws : (111 <= fuel)%nat ->
  forall c, ~ fails (binv_inner fuel a s u r 0 ws) c.
Proof.
  intros Hf c E. refine (allout_fails _ _ _ _ (binv_inner_spec fuel a s u r 0 ws _ _) E); lia.
Qed.
Theorem binv_inner_result fuel a s u r ws o rest : (111 <= fuel)%nat ->
  evals (binv_inner fuel a s u r 0 ws) (o, rest) ->
  rest = ws /\ match o with Some y => 0 <= y <= 110 | None => True end.
Proof.
  intros Hf E. refine (allout_evals _ _ _ _ (binv_inner_spec fuel a s u r 0 ws _ _) E); lia.
Qed.

(* the outer loop: every restart (x exceeded 110) consumes exactly one word; the only failures are
   running out of words, or `fuel` restarts in a row (each on a fresh word) *)
Definition words_fail (fuel : nat) (ws : list Z) (c : Z) : Prop :=
  (c = 1 /\ (length ws < fuel)%nat) \/ (c = 2 /\ (fuel <= length ws)%nat).
Lemma words_fail_S fuel w ws c : words_fail fuel ws c -> words_fail (S fuel) (w :: ws) c.
Proof. unfold words_fail. cbn [length]. lia. Qed.

Lemma binv_outer_spec fuel : forall r a s ws,
  allout (fun p => 0 <= fst p <= 110 /\
                   exists j, (1 <= j <= fuel)%nat /\ length ws = (length (snd p) + j)%nat)
         (words_fail fuel ws) (binv_outer fuel r a s ws).
Proof.
  induction fuel as [|f IH]; intros r a s ws.
  - cbn. right. split; [reflexivity|lia].
  - destruct ws as [|w ws']; cbn [binv_outer]; lstep.
    + left. split; [reflexivity|cbn; lia].
    + eapply allout_sbind; [apply (binv_inner_spec 112 a s (u_std F64 w) r 0 ws'); cbn; lia| |].
      * intros c [].
      * intros [y|] ws1; cbn [fst snd]; intros [-> B]; lstep.
        -- split; [lia|]. exists 1%nat. cbn [length]. lia.
        -- eapply allout_mono; [| |apply IH].
           ++ intros [x rest]; cbn [fst snd length]. intros [A [j [J1 J2]]]. split; [exact A|].
              exists (S j). lia.
           ++ intros c. apply words_fail_S.
Qed.
Theorem binv_outer_words fuel r a s ws x rest : evals (binv_outer fuel r a s ws) (x, rest) ->
  0 <= x <= 110 /\ exists j, (1 <= j <= fuel)%nat /\ length ws = (length rest + j)%nat.
Proof. intros E. exact (allout_evals _ _ _ _ (binv_outer_spec fuel r a s ws) E). Qed.
Theorem binv_outer_fail fuel r a s ws c : fails (binv_outer fuel r a s ws) c ->
  (c = 1 /\ (length ws < fuel)%nat) \/ (c = 2 /\ (fuel <= length ws)%nat).
Proof. intros E. exact (allout_fails _ _ _ _ (binv_outer_spec fuel r a s ws) E). Qed.

(* Knuth's product loop (Poisson); j = number of uniforms drawn by the loop: one word each, and the result
   grows by one with each *)
Lemma knuth_loop_spec fuel : forall t el p result ws,
  allout (fun q => exists j : nat, (j < fuel)%nat /\ fst q = result - 1 + Z.of_nat j /\ length ws = (length (snd q) + j)%nat)
         (words_fail fuel ws) (knuth_loop fuel t el p result ws).
Proof.
  induction fuel as [|f IH]; intros t el p result ws.
  - cbn. right. split; [reflexivity|lia].
  - cbn [knuth_loop]. lstep. intros x y _ _. destruct (rcmp CGt x y); lstep.
    + destruct ws as [|w ws']; lstep.
      * left. split; [reflexivity|cbn; lia].
      * eapply allout_mono; [| |apply IH].
        -- intros q (j & J1 & J2 & J3). exists (S j). cbn [length]. lia.
        -- intros c. apply words_fail_S.
    + exists 0%nat. cbn. lia.
Qed.
Theorem knuth_loop_words fuel t el p result ws x rest : evals (knuth_loop fuel t el p result ws) (x, rest) ->
  result - 1 <= x < result - 1 + Z.of_nat fuel /\ length ws = (length rest + Z.to_nat (x - (result - 1)))%nat.
Proof.
  intros E. destruct (allout_evals _ _ _ _ (knuth_loop_spec fuel t el p result ws) E) as (j & J1 & J2 & J3).
  cbn [fst snd] in J2, J3. lia.
Qed.
(* stated about any continuation, so that no large loop is unfolded where they are used *)
Lemma draw_std_nil {A} t (k : expr -> sampler A) : (u <- draw_std t ;; k u) [] = Fail 1.
Proof. reflexivity. Qed.
Lemma draw_std_cons {A} t (k : expr -> sampler A) w ws : (u <- draw_std t ;; k u) (w :: ws) = k (u_std t w) ws.
Proof. reflexivity. Qed.
(* Knuth: the result x is nonnegative, below the fuel, and exactly x + 1 words are consumed *)
Theorem knuth_words t lambda ws x rest : evals (knuth t lambda ws) (x, rest) ->
  0 <= x < 1024 /\ length ws = (length rest + Z.to_nat x + 1)%nat.
Proof.
  intros E. unfold knuth in E. destruct ws as [|w ws']; [rewrite draw_std_nil in E; inversion E|].
  rewrite draw_std_cons in E.
  destruct (allout_evals _ _ _ _ (knuth_loop_spec 1024 t _ _ 1 ws') E) as (j & J1 & J2 & J3).
  cbn [fst snd length] in * . lia.
Qed.
Theorem knuth_fail t lambda ws c : fails (knuth t lambda ws) c ->
  (c = 1 /\ (length ws < 1025)%nat) \/ (c = 2 /\ (1025 <= length ws)%nat).
Proof.
  intros E. unfold knuth in E. destruct ws as [|w ws'].
  - rewrite draw_std_nil in E. inversion E. left. split; [reflexivity|cbn; lia].
  - rewrite draw_std_cons in E. exact (words_fail_S _ w _ _ (allout_fails _ _ _ _ (knuth_loop_spec 1024 t _ _ 1 ws') E)).
Qed.

(* HIN (Hypergeometric): the loop reads no word, cannot fail when fuel > min(n1,k) - x, and returns
   x <= result <= max x (min n1 k) *)
Lemma hin_loop_spec fuel : forall n1 n2 k u p x ws, Z.max 0 (Z.min n1 k - x) < Z.of_nat fuel ->
  allout (fun q => snd q = ws /\ x <= fst q <= Z.max x (Z.min n1 k)) (fun _ => False)
         (hin_loop fuel n1 n2 k u p x ws).
Proof.
  induction fuel as [|f IH]; intros n1 n2 k u p x ws Hf; [lia|].
  cbn [hin_loop]. lstep. intros x0 y0 _ _. destruct (rcmp CGt x0 y0); cbn [andb]; lstep.
  - destruct (Z.ltb_spec x (Z.min n1 k)) as [L|L]; lstep.
    + eapply allout_mono; [| |apply IH; lia]; [|auto].
      intros [y rest]; cbn [fst snd]. intros [A B]. split; [exact A|lia].
    + split; [reflexivity|lia].
  - split; [reflexivity|lia].
Qed.
(* with the fuel the model supplies (min(n1,k) - x0 + 2) the loop never fails, and makes at most
   min(n1,k) - x0 iterations: x0 <= result <= min(n1,k) *)
Theorem hin_loop_no_fuel_exhaustion n1 n2 k u p x0 ws c : x0 <= Z.min n1 k ->
  ~ fails (hin_loop (Z.to_nat (Z.min n1 k - x0) + 2) n1 n2 k u p x0 ws) c.
Proof.
  intros H E. refine (allout_fails _ _ _ _ (hin_loop_spec _ n1 n2 k u p x0 ws _) E). lia.
Qed.
Theorem hin_loop_result n1 n2 k u p x0 ws x rest : x0 <= Z.min n1 k ->
  evals (hin_loop (Z.to_nat (Z.min n1 k - x0) + 2) n1 n2 k u p x0 ws) (x, rest) ->
  rest = ws /\ x0 <= x <= Z.min n1 k.
Proof.
  intros H E.
  assert (Z.max 0 (Z.min n1 k - x0) < Z.of_nat (Z.to_nat (Z.min n1 k - x0) + 2)) as Hf by lia.
  pose proof (allout_evals _ _ _ _ (hin_loop_spec _ n1 n2 k u p x0 ws Hf) E) as [A B].
  cbn [fst snd] in * . split; [exact A|lia].
Qed.

(* HIN as called by `hypergeometric`: one uniform draw, then the loop: exactly one word is consumed, the
   only failure is the missing word, and x0 <= result <= min(n1,k) *)
Theorem hin_one_word n1 n2 k p x0 ws : x0 <= Z.min n1 k ->
  allout (fun q => length ws = S (length (snd q)) /\ x0 <= fst q <= Z.min n1 k) (fun c => c = 1 /\ ws = [])
         ((u <- draw_std F64 ;; hin_loop (Z.to_nat (Z.min n1 k - x0) + 2) n1 n2 k u p x0) ws).
Proof.
  intros H. destruct ws as [|w ws']; lstep; [split; reflexivity|].
  eapply allout_mono; [| |apply hin_loop_spec; lia].
  - intros [x rest]; cbn [fst snd length]. intros [-> B]. split; [reflexivity|lia].
  - intros c [].
Qed.

(* the product loops of BTPE step 5.1 and H2PE step 4.1: btpe_up multiplies exactly cnt factors
   g(i+1) .. g(i+cnt), btpe_down divides by exactly cnt of them *)
Definition btpe_g (a s : expr) (j : Z) : expr := a /. zf j -. s.
Definition idx (i : Z) (cnt : nat) : list Z := map (fun j => i + Z.of_nat j) (seq 1 cnt).
Definition omul (f : option expr) (g : expr) : option expr := Some (match f with None => g | Some f0 => f0 *. g end).
Definition oget (f : option expr) : expr := match f with None => one | Some f0 => f0 end.

Lemma idx_length i cnt : length (idx i cnt) = cnt.
Proof. unfold idx. now rewrite map_length, seq_length. Qed.
Lemma idx_S i cnt : idx i (S cnt) = (i + 1) :: idx (i + 1) cnt.
Proof.
  unfold idx. cbn [seq map]. f_equal. rewrite <- seq_shift, map_map. apply map_ext.
  intros j. lia.
Qed.
Lemma btpe_up_fold cnt : forall a s i f,
  btpe_up cnt a s i f = oget (fold_left (fun acc j => omul acc (btpe_g a s j)) (idx i cnt) f).
Proof.
  induction cnt as [|c IH]; intros a s i f; [reflexivity|].
  rewrite idx_S. cbn [btpe_up fold_left]. rewrite IH. reflexivity.
Qed.
Lemma btpe_down_fold cnt : forall a s i f,
  btpe_down cnt a s i f = fold_left (fun acc j => acc /. btpe_g a s j) (idx i cnt) f.
Proof.
  induction cnt as [|c IH]; intros a s i f; [reflexivity|].
  rewrite idx_S. cbn [btpe_down fold_left]. rewrite IH. reflexivity.
Qed.
(* in step 5.1 the iteration count is |y - m| *)
Lemma btpe_51_count m y :
  (m < y -> Z.to_nat (y - m) = Z.abs_nat (y - m)) /\ (y < m -> Z.to_nat (m - y) = Z.abs_nat (y - m)).
Proof. split; intros H; lia. Qed.

(* H2PE 4.1: the product loops read no word and can only fail with the code-3 panic (u64 underflow) *)
Lemma h2pe_up_spec cnt : forall n1 n2 k i f ws,
  allout (fun q => snd q = ws) (fun c => c = 3) (h2pe_up cnt n1 n2 k i f ws).
Proof.
  induction cnt as [|c IH]; intros n1 n2 k i f ws; cbn [h2pe_up]; lstep; [reflexivity|].
  destruct ((n1 <? i + 1) || (k <? i + 1)); lstep; [reflexivity|apply IH].
Qed.
Lemma h2pe_down_spec cnt : forall n1 n2 k i f ws,
  allout (fun q => snd q = ws) (fun c => c = 3) (h2pe_down cnt n1 n2 k i f ws).
Proof.
  induction cnt as [|c IH]; intros n1 n2 k i f ws; cbn [h2pe_down]; lstep; [reflexivity|].
  destruct ((n1 <? i + 1) || (k <? i + 1)); lstep; [reflexivity|apply IH].
Qed.
(* ... and do not panic when the index range stays within min(n1,k); the result is a product of
   exactly cnt steps (structural recursion on cnt) *)
Definition h2pe_step_up (n1 n2 k : Z) (f : option expr) (i : Z) : option expr :=
  fdiv (fmul f (zf (n1 - i + 1) *. zf (k - i + 1))) (zf i *. zf (n2 - k + i)).
Definition h2pe_step_down (n1 n2 k : Z) (f : option expr) (i : Z) : option expr :=
  fdiv (fmul f (zf i *. zf (n2 - k + i))) (zf (n1 - i + 1) *. zf (k - i + 1)).
Lemma h2pe_guard_false n1 k i : i + 1 <= Z.min n1 k -> (n1 <? i + 1) || (k <? i + 1) = false.
Proof. intros H. apply orb_false_iff. split; apply Z.ltb_ge; lia. Qed.
Lemma h2pe_up_value cnt : forall n1 n2 k i f ws, i + Z.of_nat cnt <= Z.min n1 k ->
  h2pe_up cnt n1 n2 k i f ws = Ret (oget (fold_left (h2pe_step_up n1 n2 k) (idx i cnt) f), ws).
Proof.
  induction cnt as [|c IH]; intros n1 n2 k i f ws H; [reflexivity|].
  rewrite idx_S. cbn [h2pe_up fold_left]. rewrite h2pe_guard_false, IH by lia. reflexivity.
Qed.
Lemma h2pe_down_value cnt : forall n1 n2 k i f ws, i + Z.of_nat cnt <= Z.min n1 k ->
  h2pe_down cnt n1 n2 k i f ws = Ret (oget (fold_left (h2pe_step_down n1 n2 k) (idx i cnt) f), ws).
Proof.
  induction cnt as [|c IH]; intros n1 n2 k i f ws H; [reflexivity|].
  rewrite idx_S. cbn [h2pe_down fold_left]. rewrite h2pe_guard_false, IH by lia. reflexivity.
Qed.

(* Geometric::new on the ideal model: k <= 54, the fuel 64 is never exhausted *)
Lemma half_eval : evalX half = Xreal (/ 2).
Proof. unfold half. cbn [evalX]. rewrite xdy_real. f_equal. change (powerRZ 2 (-1)) with (/ (2 * 1))%R. lra. Qed.
Lemma sqr_eval a x : evalX a = Xreal x -> evalX (Un Sqr a) = Xreal (x * x).
Proof. intros H. cbn [evalX xun]. rewrite H. reflexivity. Qed.

(* the loop is entered with pi already squared: j further squarings bring x^2 below 1/2 when x^(2^(j+1)) <= 1/2 *)
Lemma geo_new_loop_spec fuel : forall pi k x (j : nat) ws,
  evalX pi = Xreal x -> (0 <= x)%R -> (x ^ (2 ^ S j) <= / 2)%R -> (j < fuel)%nat ->
  allout (fun q => k <= snd (fst q) <= k + Z.of_nat j /\ snd q = ws) (fun _ => False)
         (geo_new_loop fuel (Un Sqr pi) k ws).
Proof.
  induction fuel as [|f IH]; intros pi k x j ws Hpi Hx Hj Hf; [lia|].
  cbn [geo_new_loop]. lstep. apply (ask_values _ _ _ _ _ (sqr_eval _ _ Hpi) half_eval).
  unfold rcmp. destruct (Rlt_dec (/ 2) (x * x)) as [L|L]; lstep.
  - destruct j as [|j]; [cbn in Hj; lra|].
    eapply allout_mono; [| |apply (IH _ (k + 1) (x * x)%R j ws (sqr_eval _ _ Hpi))]; [|auto| | |lia].
    + intros [[p' k'] rest]; cbn [fst snd]. intros [A B]. split; [lia|exact B].
    + nra.
    + replace (x * x)%R with (x ^ 2)%R by ring. rewrite <- pow_mult. exact Hj.
  - split; [lia|reflexivity].
Qed.

Lemma rounds_to_one_false p : rounds_to_one p = false -> (/ 2 ^ 54 < dyR p)%R.
Proof.
  unfold rounds_to_one, dy_leb. rewrite dy_cmp_spec.
  destruct (Rcompare_spec (dyR p) (dyR (1, -54))) as [H|H|H]; try discriminate. intros _.
  unfold dyR at 1 in H. cbn [fst snd] in H. change (powerRZ 2 (-54)) with (/ 2 ^ 54)%R in H. lra.
Qed.

(* the call made by `geometric`: from pi0 = 1 - p with 2^-54 <= p <= 1 the loop returns 1 <= k <= 54
   without reading a word and without failing; in particular `1 << k` does not overflow (k < 64) *)
Theorem geo_new_loop_model p ws : (/ 2 ^ 54 <= dyR p <= 1)%R ->
  allout (fun q => 1 <= snd (fst q) <= 54 /\ snd q = ws) (fun _ => False)
         (geo_new_loop 64 (Un Sqr (one -. dyx p)) 1 ws).
Proof.
  intros H.
  assert (evalX (one -. dyx p) = Xreal (1 - dyR p)) as E by (cbn [evalX xbin]; rewrite one_eval, dyx_eval; reflexivity).
  apply (geo_new_loop_spec 64 _ 1 _ 53 ws E); [lra| |lia]. apply (exact_squarings_bound (1 - dyR p) 54). lra.
Qed.
Theorem geo_new_loop_model_result p ws pi k rest : (/ 2 ^ 54 <= dyR p <= 1)%R ->
  evals (geo_new_loop 64 (Un Sqr (one -. dyx p)) 1 ws) (pi, k, rest) -> 1 <= k <= 54 /\ rest = ws.
Proof. intros H E. exact (allout_evals _ _ _ _ (geo_new_loop_model p ws H) E). Qed.
Theorem geo_new_loop_model_no_fail p ws c : (/ 2 ^ 54 <= dyR p <= 1)%R ->
  ~ fails (geo_new_loop 64 (Un Sqr (one -. dyx p)) 1 ws) c.
Proof. intros H E. exact (allout_fails _ _ _ _ (geo_new_loop_model p ws H) E). Qed.

(* no loop of Geometric rejects every word list: each accepts on an explicit one *)
Lemma powi_0 a : powi a 0 = one. Proof. reflexivity. Qed.

(* Geometric, m-loop: the word 0 gives m = 0 and p_reject = (1-p)^0 = 1 > u for every second word *)
Theorem geo_m_accepts f p k w2 ws : word w2 -> evals (geo_m (S f) p k (0 :: w2 :: ws)) (0, ws).
Proof.
  intros Hw.
  cbn [geo_m sbind bind next_word draw_std sret sask]. rewrite Zmod_0_l.
  change (0 <=? 2 ^ 31 - 1) with true. cbv iota. rewrite powi_0.
  eapply EvAsk; [apply u_std_eval|apply one_eval|].
  rewrite (proj2 (rcmp_true CLt _ _)) by apply (uR_std_range F64 w2 Hw). constructor.
Qed.
(* Geometric, trivial algorithm (p >= 2/3): u = 0 <= p *)
Theorem geo_trivial_accepts f p x n ws : evalX p = Xreal x -> (0 <= x)%R ->
  evals (geo_trivial (S f) p n (0 :: ws)) (n, ws).
Proof.
  intros E Hx.
  cbn [geo_trivial sbind bind next_word draw_std sret sask].
  eapply EvAsk; [apply u_std_eval|exact E|].
  rewrite (proj2 (rcmp_true CLe _ _)); [constructor|]. unfold uR_std. cbn. lra.
Qed.
(* Geometric, d-loop: u = 1 - 2^-53 >= pi for pi <= 1/2 *)
Theorem geo_d_accepts f pi x n ws : evalX pi = Xreal x -> (x <= / 2)%R ->
  evals (geo_d (S f) pi n ((2 ^ 64 - 1) :: ws)) (n, ws).
Proof.
  intros E Hx.
  cbn [geo_d sbind bind next_word draw_std sret sask].
  eapply EvAsk; [apply u_std_eval|exact E|].
  replace (rcmp CLt _ x) with false; [constructor|].
  symmetry. apply not_true_iff_false. rewrite rcmp_true. unfold uR_std.
  change ((2 ^ 64 - 1) / 2 ^ 11) with (2 ^ 53 - 1). rewrite minus_IZR. lra.
Qed.


