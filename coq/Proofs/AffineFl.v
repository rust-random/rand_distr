(* Proofs/AffineFl.v — IEEE arithmetic (Flocq BinarySingleNaN, round-to-nearest-even), generic in the binary format (prec, emax).
   First what every *Fl file reasons through: the rounding function rnd of the format with its order laws, its bounds by powers
   of two and its error (u = 2^-prec relative, eta absolute), and for each float operation its value when the rounded exact
   result does not overflow.
   Then C07: Normal::from_zscore(z) = fl(mean + fl(std_dev * z)):
     - value of the two-operation program as two nested roundings (no overflow),
     - explicit forward error bound (u relative per operation, eta = 2^(emin-1) absolute for the
       product only: the rounded sum of two floats never suffers an underflow error),
     - special values (sd = +-0, z = +-inf),
     - exactness of the multiplication by a power of two (when the product is representable).                                        *)
From Coq Require Import Reals Lra Lia.
From Flocq Require Import Core.Core Relative Plus_error Mult_error IEEE754.BinarySingleNaN.
Open Scope R_scope.

Section Fmt.
Variable prec emax : Z.
Context (Hp : Prec_gt_0 prec) (Hpe : Prec_lt_emax prec emax).
Notation float := (binary_float prec emax).

(* the format of the finite floats: emin = 3 - emax - prec (binary64: -1074) *)
Definition aemin : Z := 3 - emax - prec.
Definition afexp : Z -> Z := FLT_exp aemin prec.
Definition rnd (r : R) : R := round radix2 afexp ZnearestE r.
(* unit roundoff and the half-smallest-subnormal *)
Definition u : R := bpow radix2 (- prec).
Definition eta : R := / 2 * bpow radix2 aemin.

Instance afexp_valid : Valid_exp afexp := FLT_exp_valid aemin prec.

Lemma rnd_mono (x y : R) : x <= y -> rnd x <= rnd y.
Proof. apply round_le; typeclasses eauto. Qed.

Lemma rnd_zero : rnd 0 = 0.
Proof. apply round_0. typeclasses eauto. Qed.

Lemma rnd_nonneg (x : R) : 0 <= x -> 0 <= rnd x.
Proof. intros H. rewrite <- rnd_zero. apply rnd_mono, H. Qed.

Lemma rnd_opp (x : R) : rnd (- x) = - rnd x.
Proof. apply round_NE_opp. Qed.

Lemma rnd_format (x : R) : generic_format radix2 afexp (rnd x).
Proof. apply generic_format_round; typeclasses eauto. Qed.

(* afexp unfolds to the exponent function of binary_float prec emax *)
Lemma B2R_format (x : float) : generic_format radix2 afexp (B2R x).
Proof. apply (generic_format_B2R prec emax). Qed.

Lemma rnd_id (x : R) : generic_format radix2 afexp x -> rnd x = x.
Proof. apply round_generic. typeclasses eauto. Qed.

Lemma rnd_B2R (x : float) : rnd (B2R x) = B2R x.
Proof. apply rnd_id, B2R_format. Qed.

Lemma rnd_ge_B2R (a : float) (x : R) : B2R a <= x -> B2R a <= rnd x.
Proof. intros H. rewrite <- (rnd_B2R a). apply rnd_mono, H. Qed.

Lemma rnd_le_B2R (a : float) (x : R) : x <= B2R a -> rnd x <= B2R a.
Proof. intros H. rewrite <- (rnd_B2R a). apply rnd_mono, H. Qed.

(* bounds by a power of two 2^t, 0 <= t: it is representable, so rounding does not cross it *)
Lemma emax_gt_1 : (1 < emax)%Z.
Proof. unfold Prec_gt_0, Prec_lt_emax in * . lia. Qed.

Lemma bpow_format (t : Z) : (0 <= t)%Z -> generic_format radix2 afexp (bpow radix2 t).
Proof.
  intros Ht. apply generic_format_bpow'; [typeclasses eauto|].
  pose proof emax_gt_1. unfold afexp, FLT_exp, aemin, Prec_gt_0 in * . lia.
Qed.

Lemma rnd_abs_le (v : R) (t : Z) : (0 <= t)%Z -> Rabs v <= bpow radix2 t -> Rabs (rnd v) <= bpow radix2 t.
Proof. intros Ht. apply abs_round_le_generic; [typeclasses eauto..|apply bpow_format, Ht]. Qed.

Lemma rnd_range (v : R) (t : Z) : (0 <= t)%Z -> 0 <= v <= bpow radix2 t -> 0 <= rnd v <= bpow radix2 t.
Proof.
  intros Ht [H0 H1]. split; [apply rnd_nonneg, H0|].
  apply round_le_generic; [typeclasses eauto..|apply bpow_format, Ht|exact H1].
Qed.

Lemma no_ovf (v : R) (t : Z) : (0 <= t)%Z -> (t < emax)%Z -> Rabs v <= bpow radix2 t -> Rabs (rnd v) < bpow radix2 emax.
Proof. intros Ht Hte H. eapply Rle_lt_trans; [apply rnd_abs_le; eassumption|apply bpow_lt, Hte]. Qed.

(* the float operations: absent overflow the result is finite and its value is the rounded exact result
   (Flocq states these with the rounding written out; it is rnd up to unfolding) *)
Lemma Bplus_value (x y : float) : is_finite x = true -> is_finite y = true ->
  Rabs (rnd (B2R x + B2R y)) < bpow radix2 emax ->
  B2R (Bplus mode_NE x y) = rnd (B2R x + B2R y) /\ is_finite (Bplus mode_NE x y) = true.
Proof.
  intros Fx Fy O. generalize (Bplus_correct prec emax Hp Hpe mode_NE x y Fx Fy).
  rewrite Rlt_bool_true by exact O. intros (E & F & _). split; [exact E|exact F].
Qed.

Lemma Bminus_value (x y : float) : is_finite x = true -> is_finite y = true ->
  Rabs (rnd (B2R x - B2R y)) < bpow radix2 emax ->
  B2R (Bminus mode_NE x y) = rnd (B2R x - B2R y) /\ is_finite (Bminus mode_NE x y) = true.
Proof.
  intros Fx Fy O. generalize (Bminus_correct prec emax Hp Hpe mode_NE x y Fx Fy).
  rewrite Rlt_bool_true by exact O. intros (E & F & _). split; [exact E|exact F].
Qed.

Lemma Bmult_value (x y : float) : is_finite x = true -> is_finite y = true ->
  Rabs (rnd (B2R x * B2R y)) < bpow radix2 emax ->
  B2R (Bmult mode_NE x y) = rnd (B2R x * B2R y) /\ is_finite (Bmult mode_NE x y) = true.
Proof.
  intros Fx Fy O. generalize (Bmult_correct prec emax Hp Hpe mode_NE x y).
  rewrite Rlt_bool_true by exact O. intros (E & F & _). rewrite Fx, Fy in F. split; [exact E|exact F].
Qed.

Lemma Bdiv_value (x y : float) : is_finite x = true -> B2R y <> 0 ->
  Rabs (rnd (B2R x / B2R y)) < bpow radix2 emax ->
  B2R (Bdiv mode_NE x y) = rnd (B2R x / B2R y) /\ is_finite (Bdiv mode_NE x y) = true.
Proof.
  intros Fx Ny O. generalize (Bdiv_correct prec emax Hp Hpe mode_NE x y Ny).
  rewrite Rlt_bool_true by exact O. intros (E & F & _). rewrite Fx in F. split; [exact E|exact F].
Qed.

(* the square root cannot overflow; it is finite unless its argument is negative *)
Lemma Bsqrt_value (x : float) : is_finite x = true -> 0 <= B2R x ->
  B2R (Bsqrt mode_NE x) = rnd (sqrt (B2R x)) /\ is_finite (Bsqrt mode_NE x) = true.
Proof.
  intros Fx H0. destruct (Bsqrt_correct prec emax Hp Hpe mode_NE x) as (E & F & _). split; [exact E|].
  rewrite F. destruct x as [s|s| |[|] m e He]; try discriminate; try reflexivity.
  elim (Rlt_not_le _ _ (F2R_lt_0 radix2 (Defs.Float radix2 (Z.neg m) e) eq_refl) H0).
Qed.

Lemma u_eq : u = / 2 * bpow radix2 (- prec + 1).
Proof. unfold u. rewrite bpow_plus. simpl (bpow radix2 1). lra. Qed.

Lemma u_pos : 0 < u.
Proof. apply bpow_gt_0. Qed.

Lemma eta_pos : 0 < eta.
Proof. unfold eta. generalize (bpow_gt_0 radix2 aemin). lra. Qed.

Lemma rnd_error (x : R) : Rabs (rnd x - x) <= u * Rabs x + eta.
Proof.
  destruct (error_N_FLT radix2 aemin prec Hp (fun n => negb (Z.even n)) x)
    as (e & t & He & Ht & _ & E).
  unfold rnd, afexp. rewrite E. rewrite <- u_eq in He. fold eta in Ht.
  replace (x * (1 + e) + t - x) with (x * e + t) by ring.
  eapply Rle_trans; [apply Rabs_triang|]. rewrite Rabs_mult.
  pose proof (Rabs_pos x). nra.
Qed.

Lemma rnd_encl (x : R) : 0 <= x -> x * (1 - u) - eta <= rnd x <= x * (1 + u) + eta.
Proof.
  intros Hx. pose proof (rnd_error x) as E. rewrite (Rabs_pos_eq x Hx) in E.
  apply Rabs_le_inv in E. lra.
Qed.

(* sum of two floats: relative error u only, also in the subnormal range *)
Lemma rnd_plus_error (x y : R) :
  generic_format radix2 afexp x -> generic_format radix2 afexp y ->
  Rabs (rnd (x + y) - (x + y)) <= u * Rabs (x + y).
Proof.
  intros Fx Fy.
  destruct (@FLT_plus_error_N_ex radix2 aemin prec Hp (fun n => negb (Z.even n)) x y Fx Fy)
    as (e & He & E).
  unfold rnd, afexp. rewrite E.
  assert (He' : Rabs e <= u).
  { eapply Rle_trans; [exact He|]. rewrite u_eq. apply (u_rod1pu_ro_le_u_ro radix2 prec). }
  replace ((x + y) * (1 + e) - (x + y)) with ((x + y) * e) by ring.
  rewrite Rabs_mult. pose proof (Rabs_pos (x + y)). nra.
Qed.

Definition from_zscore_fl (mean sd z : float) : float :=
  Bplus mode_NE mean (Bmult mode_NE sd z).

Theorem from_zscore_fl_value (mean sd z : float) :
  is_finite mean = true -> is_finite sd = true -> is_finite z = true ->
  Rabs (rnd (B2R sd * B2R z)) < bpow radix2 emax ->
  Rabs (rnd (B2R mean + rnd (B2R sd * B2R z))) < bpow radix2 emax ->
  B2R (from_zscore_fl mean sd z) = rnd (B2R mean + rnd (B2R sd * B2R z)) /\
  is_finite (from_zscore_fl mean sd z) = true.
Proof.
  intros Fm Fs Fz O1 O2. destruct (Bmult_value sd z Fs Fz O1) as [E F].
  rewrite <- E in O2 |- * . exact (Bplus_value mean _ Fm F O2).
Qed.

(* the affine map: fl(m + fl(s*z)) against m + s*z; the error of the sum, e, adds to that of the product *)
Lemma affine_split (m s z e : R) :
  Rabs (rnd (m + rnd (s * z)) - (m + rnd (s * z))) <= e ->
  Rabs (rnd (m + rnd (s * z)) - (m + s * z)) <= e + (u * Rabs (s * z) + eta).
Proof.
  intros E2. pose proof (rnd_error (s * z)) as E1. set (p := rnd (s * z)) in * .
  replace (rnd (m + p) - (m + s * z)) with ((rnd (m + p) - (m + p)) + (p - s * z)) by ring.
  eapply Rle_trans; [apply Rabs_triang|]. lra.
Qed.

Theorem affine_rounding (m s z : R) :
  generic_format radix2 afexp m ->
  Rabs (rnd (m + rnd (s * z)) - (m + s * z))
    <= u * (Rabs (s * z) + Rabs (m + rnd (s * z))) + eta.
Proof.
  intros Fm. pose proof (affine_split m s z _ (rnd_plus_error m _ Fm (rnd_format _))). lra.
Qed.

(* no assumption on m: both roundings may lose eta *)
Theorem affine_rounding_gen (m s z : R) :
  Rabs (rnd (m + rnd (s * z)) - (m + s * z))
    <= u * (Rabs (s * z) + Rabs (m + rnd (s * z))) + 2 * eta.
Proof. pose proof (affine_split m s z _ (rnd_error _)). lra. Qed.

Theorem affine_rounding_exact (m s z : R) :
  generic_format radix2 afexp m ->
  Rabs (rnd (m + rnd (s * z)) - (m + s * z))
    <= u * Rabs (m + s * z) + u * (2 + u) * Rabs (s * z) + (1 + u) * eta.
Proof.
  intros Fm. pose proof (affine_rounding m s z Fm) as A.
  pose proof (rnd_error (s * z)) as E1. set (p := rnd (s * z)) in * .
  assert (T : Rabs (m + p) <= Rabs (m + s * z) + Rabs (p - s * z)).
  { replace (m + p) with ((m + s * z) + (p - s * z)) by ring. apply Rabs_triang. }
  pose proof u_pos. pose proof (Rabs_pos (s * z)). pose proof eta_pos.
  assert (u * Rabs (m + p) <= u * (Rabs (m + s * z) + (u * Rabs (s * z) + eta))) by nra.
  nra.
Qed.

Theorem from_zscore_fl_error (mean sd z : float) :
  is_finite mean = true -> is_finite sd = true -> is_finite z = true ->
  Rabs (rnd (B2R sd * B2R z)) < bpow radix2 emax ->
  Rabs (rnd (B2R mean + rnd (B2R sd * B2R z))) < bpow radix2 emax ->
  Rabs (B2R (from_zscore_fl mean sd z) - (B2R mean + B2R sd * B2R z))
    <= u * Rabs (B2R mean + B2R sd * B2R z) + u * (2 + u) * Rabs (B2R sd * B2R z) + (1 + u) * eta.
Proof.
  intros Fm Fs Fz O1 O2.
  destruct (from_zscore_fl_value mean sd z Fm Fs Fz O1 O2) as (E & _). rewrite E.
  apply affine_rounding_exact, B2R_format.
Qed.

Lemma Bmult_zero_l (s : bool) (z : float) :
  is_finite z = true -> Bmult mode_NE (B754_zero s : float) z = B754_zero (xorb s (Bsign z)).
Proof. destruct z as [sz|sz| |sz mz ez Hz]; simpl; try discriminate; reflexivity. Qed.

Lemma Bplus_zero_r (x : float) (s : bool) : is_finite x = true ->
  B2R (Bplus mode_NE x (B754_zero s)) = B2R x /\ is_finite (Bplus mode_NE x (B754_zero s)) = true /\
  (B2R x <> 0 -> Bplus mode_NE x (B754_zero s) = x).
Proof.
  destruct x as [sx|sx| |sx mx ex Hx]; try discriminate; intros _; [|repeat split; reflexivity].
  simpl. destruct (Bool.eqb sx s); repeat split; try reflexivity; intros N; now elim N.
Qed.

Theorem from_zscore_fl_sd_zero (mean : float) (s : bool) (z : float) :
  is_finite mean = true -> is_finite z = true ->
  B2R (from_zscore_fl mean (B754_zero s) z) = B2R mean /\
  is_finite (from_zscore_fl mean (B754_zero s) z) = true.
Proof.
  intros Fm Fz. unfold from_zscore_fl. rewrite Bmult_zero_l by exact Fz.
  destruct (Bplus_zero_r mean (xorb s (Bsign z)) Fm) as (E & F & _). split; assumption.
Qed.

Theorem from_zscore_fl_sd_zero_eq (mean : float) (s : bool) (z : float) :
  is_finite mean = true -> is_finite z = true -> B2R mean <> 0 ->
  from_zscore_fl mean (B754_zero s) z = mean.
Proof.
  intros Fm Fz Nz. unfold from_zscore_fl. rewrite Bmult_zero_l by exact Fz.
  now apply Bplus_zero_r.
Qed.

Corollary from_zscore_fl_all_zero (sm s : bool) (z : float) :
  is_finite z = true -> B2R (from_zscore_fl (B754_zero sm) (B754_zero s) z) = 0.
Proof. intros Fz. now destruct (from_zscore_fl_sd_zero (B754_zero sm) s z eq_refl Fz). Qed.

Theorem from_zscore_fl_sd_zero_nonfinite (mean : float) (s : bool) (z : float) :
  is_finite mean = false -> is_finite z = true ->
  from_zscore_fl mean (B754_zero s) z = mean.
Proof.
  intros Fm Fz. unfold from_zscore_fl. rewrite Bmult_zero_l by exact Fz.
  destruct mean; try discriminate; reflexivity.
Qed.

Theorem from_zscore_fl_z_inf_not_finite (mean sd : float) (sz : bool) :
  is_finite (from_zscore_fl mean sd (B754_infinity sz)) = false.
Proof.
  unfold from_zscore_fl.
  destruct sd as [ss|ss| |ss ms es Hs]; destruct mean as [sm|sm| |sm mm em Hm]; simpl; try reflexivity;
    destruct sm; destruct ss; destruct sz; reflexivity.
Qed.

Theorem from_zscore_fl_z_inf (mean sd : float) (sz : bool) :
  is_finite mean = true -> is_finite_strict sd = true ->
  from_zscore_fl mean sd (B754_infinity sz) = B754_infinity (xorb (Bsign sd) sz).
Proof.
  unfold from_zscore_fl.
  destruct sd as [ss|ss| |ss ms es Hs]; try discriminate.
  destruct mean as [sm|sm| |sm mm em Hm]; try discriminate; reflexivity.
Qed.

(* z = +-inf, sd = +-0: NaN (0 * inf), whatever the mean *)
Theorem from_zscore_fl_z_inf_sd_zero (mean : float) (s sz : bool) :
  from_zscore_fl mean (B754_zero s) (B754_infinity sz) = B754_nan.
Proof. unfold from_zscore_fl. destruct mean; reflexivity. Qed.

(* z = +-inf, sd nonzero, mean infinite: mean if the signs agree, NaN (inf - inf) otherwise *)
Theorem from_zscore_fl_z_inf_mean_inf (sm : bool) (sd : float) (sz : bool) :
  is_finite_strict sd = true ->
  from_zscore_fl (B754_infinity sm) sd (B754_infinity sz) =
  if Bool.eqb sm (xorb (Bsign sd) sz) then B754_infinity sm else B754_nan.
Proof.
  unfold from_zscore_fl.
  destruct sd as [ss|ss| |ss ms es Hs]; try discriminate. intros _. reflexivity.
Qed.

Theorem from_zscore_fl_nan (mean sd z : float) :
  is_nan mean = true \/ is_nan sd = true \/ is_nan z = true ->
  is_nan (from_zscore_fl mean sd z) = true.
Proof.
  unfold from_zscore_fl. intros [H|[H|H]].
  - destruct mean; try discriminate. reflexivity.
  - destruct sd; try discriminate. destruct mean; reflexivity.
  - destruct z; try discriminate. destruct sd; destruct mean; reflexivity.
Qed.

Lemma pow2_scale_format (k : Z) (x : R) :
  generic_format radix2 afexp x ->
  (x = 0 \/ (0 <= k)%Z \/ bpow radix2 (aemin + prec - 1) <= Rabs (bpow radix2 k * x)) ->
  generic_format radix2 afexp (bpow radix2 k * x).
Proof.
  intros Fx H. rewrite Rmult_comm.
  destruct (Req_dec x 0) as [Zx|Nx]; [rewrite Zx, Rmult_0_l; apply generic_format_0|].
  destruct H as [H|[H|H]]; [contradiction| |].
  - now apply mult_bpow_pos_exact_FLT.
  - apply mult_bpow_exact_FLT; [exact Fx|].
    rewrite Rmult_comm in H.
    replace (aemin + prec - 1)%Z with ((aemin + prec) - 1)%Z in H by ring.
    apply mag_ge_bpow in H. rewrite mag_mult_bpow in H by exact Nx. lia.
Qed.

Theorem Bmult_pow2_exact (sd z : float) (k : Z) :
  is_finite sd = true -> is_finite z = true ->
  B2R sd = bpow radix2 k ->
  (B2R z = 0 \/ (0 <= k)%Z \/ bpow radix2 (aemin + prec - 1) <= Rabs (bpow radix2 k * B2R z)) ->
  Rabs (bpow radix2 k * B2R z) < bpow radix2 emax ->
  B2R (Bmult mode_NE sd z) = bpow radix2 k * B2R z /\ is_finite (Bmult mode_NE sd z) = true.
Proof.
  intros Fs Fz Es U O.
  assert (R : rnd (B2R sd * B2R z) = bpow radix2 k * B2R z).
  { rewrite Es. apply rnd_id, pow2_scale_format; [apply B2R_format | exact U]. }
  rewrite <- R in O |- * . exact (Bmult_value sd z Fs Fz O).
Qed.

(* consequence: scaling by 2^k commutes with a rounded operation's result:
   fl(2^k * fl(x)) = 2^k * fl(x), i.e. no second rounding error is introduced *)
Corollary rnd_pow2_scale (k : Z) (x : R) :
  (rnd x = 0 \/ (0 <= k)%Z \/ bpow radix2 (aemin + prec - 1) <= Rabs (bpow radix2 k * rnd x)) ->
  rnd (bpow radix2 k * rnd x) = bpow radix2 k * rnd x.
Proof.
  intros H. apply rnd_id, pow2_scale_format; [apply rnd_format | exact H].
Qed.


(* the subtractive form loc - scale * g (gumbel.rs:100; Frechet and SkewNormal use the additive form) *)
Definition affine_sub_fl (loc scale g : float) : float :=
  Bminus mode_NE loc (Bmult mode_NE scale g).

Theorem affine_sub_fl_value (loc scale g : float) :
  is_finite loc = true -> is_finite scale = true -> is_finite g = true ->
  Rabs (rnd (B2R scale * B2R g)) < bpow radix2 emax ->
  Rabs (rnd (B2R loc - rnd (B2R scale * B2R g))) < bpow radix2 emax ->
  B2R (affine_sub_fl loc scale g) = rnd (B2R loc - rnd (B2R scale * B2R g)) /\
  is_finite (affine_sub_fl loc scale g) = true.
Proof.
  intros Fm Fs Fz O1 O2. destruct (Bmult_value scale g Fs Fz O1) as [E F].
  rewrite <- E in O2 |- * . exact (Bminus_value loc _ Fm F O2).
Qed.

Theorem affine_sub_fl_error (loc scale g : float) :
  is_finite loc = true -> is_finite scale = true -> is_finite g = true ->
  Rabs (rnd (B2R scale * B2R g)) < bpow radix2 emax ->
  Rabs (rnd (B2R loc - rnd (B2R scale * B2R g))) < bpow radix2 emax ->
  Rabs (B2R (affine_sub_fl loc scale g) - (B2R loc - B2R scale * B2R g))
    <= u * Rabs (B2R loc - B2R scale * B2R g) + u * (2 + u) * Rabs (B2R scale * B2R g) + (1 + u) * eta.
Proof.
  intros Fm Fs Fz O1 O2.
  destruct (affine_sub_fl_value loc scale g Fm Fs Fz O1 O2) as (E & _). rewrite E.
  pose proof (affine_rounding_exact (B2R loc) (B2R scale) (- B2R g) (B2R_format loc)) as A.
  replace (B2R scale * - B2R g) with (- (B2R scale * B2R g)) in A by ring.
  rewrite rnd_opp, Rabs_Ropp in A. exact A.
Qed.

End Fmt.
