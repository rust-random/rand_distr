(* Proofs/TriangularFl.v — property C03 at the IEEE level for Triangular::sample (triangular.rs:101-110), which contains no libm call
   (sqrt is a correctly rounded IEEE operation, Flocq's Bsqrt):
       dmm = mode - min; range = max - min; f_range = f * range;
       if f_range < dmm { min + sqrt(f_range * dmm) } else { max - sqrt((range - f_range) * (max - mode)) }
   For finite min <= mode <= max with |min|, |max| <= 2^k, 2k + 3 <= emax, and every finite draw f in [0, 1]: no operation
   overflows, no square root is taken of a negative number, the result is a FINITE float (never NaN, never infinite), it is >= min
   in the first branch and <= max in the second (exactly, no ulp), and it lies in [-2^(k+2), 2^(k+2)] in both.
   The predicate `bf t x` (a finite float in [0, 2^t]) and its closure under - * / sqrt, stated first, also serve the other
   IEEE-level files (Beta, Dirichlet, Pert, UnitSphere, UnitCircle).                                                              *)
From Coq Require Import Reals Lra Lia.
From Flocq Require Import Core.Core IEEE754.BinarySingleNaN.
From RD Require Import Proofs.AffineFl.
Open Scope R_scope.

Section Fmt.
Variable prec emax : Z.
Context (Hp : Prec_gt_0 prec) (Hpe : Prec_lt_emax prec emax).
Notation float := (binary_float prec emax).
Notation rnd := (rnd prec emax).

Definition triangular_fl (mn md mx f : float) : float :=
  let dmm := Bminus mode_NE md mn in
  let range := Bminus mode_NE mx mn in
  let f_range := Bmult mode_NE f range in
  if Bltb f_range dmm then Bplus mode_NE mn (Bsqrt mode_NE (Bmult mode_NE f_range dmm))
  else Bminus mode_NE mx (Bsqrt mode_NE (Bmult mode_NE (Bminus mode_NE range f_range) (Bminus mode_NE mx md))).

Definition bf (t : Z) (x : float) : Prop := is_finite x = true /\ 0 <= B2R x <= bpow radix2 t.

(* z the result of an operation (V: its value absent overflow) whose exact result v lies in [0, 2^t], t < emax *)
Lemma bf_intro (z : float) (v : R) (t : Z) : (0 <= t)%Z -> (t < emax)%Z -> 0 <= v <= bpow radix2 t ->
  (Rabs (rnd v) < bpow radix2 emax -> B2R z = rnd v /\ is_finite z = true) -> bf t z.
Proof.
  intros Ht Hte Q V. destruct V as [V F].
  - apply (no_ovf prec emax Hp Hpe v t Ht Hte). rewrite Rabs_pos_eq; apply Q.
  - split; [exact F|]. rewrite V. apply (rnd_range prec emax Hp Hpe v t Ht Q).
Qed.

(* the same for an exact result of either sign, |v| <= 2^t *)
Lemma abs_intro (z : float) (v : R) (t : Z) : (0 <= t)%Z -> (t < emax)%Z -> Rabs v <= bpow radix2 t ->
  (Rabs (rnd v) < bpow radix2 emax -> B2R z = rnd v /\ is_finite z = true) ->
  is_finite z = true /\ Rabs (B2R z) <= bpow radix2 t.
Proof.
  intros Ht Hte Q V. destruct (V (no_ovf prec emax Hp Hpe v t Ht Hte Q)) as [E F].
  split; [exact F|]. rewrite E. exact (rnd_abs_le prec emax Hp Hpe v t Ht Q).
Qed.

Lemma bf_one : bf 0 Bone.
Proof. split; [apply is_finite_Bone|rewrite Bone_correct; simpl; lra]. Qed.

Lemma minus_bf (x y : float) (k : Z) : (0 <= k)%Z -> (k + 1 < emax)%Z ->
  is_finite x = true -> is_finite y = true -> Rabs (B2R x) <= bpow radix2 k -> Rabs (B2R y) <= bpow radix2 k -> B2R y <= B2R x ->
  bf (k + 1) (Bminus mode_NE x y).
Proof.
  intros Hk Hke Fx Fy Hx Hy Hle.
  apply (bf_intro _ (B2R x - B2R y)); [lia|exact Hke| |exact (Bminus_value prec emax Hp Hpe x y Fx Fy)].
  rewrite bpow_plus_1. simpl (IZR radix2). apply Rabs_le_inv in Hx. apply Rabs_le_inv in Hy. lra.
Qed.

Lemma minus_bf_le (x y : float) (t : Z) : (0 <= t)%Z -> (t < emax)%Z -> bf t x -> bf t y -> B2R y <= B2R x ->
  bf t (Bminus mode_NE x y).
Proof.
  intros Ht Hte [Fx Hx] [Fy Hy] Hle.
  apply (bf_intro _ (B2R x - B2R y)); [exact Ht|exact Hte|lra|exact (Bminus_value prec emax Hp Hpe x y Fx Fy)].
Qed.

Lemma one_minus_bf (b : float) : bf 0 b -> bf 0 (Bminus mode_NE Bone b).
Proof.
  intros Hb. pose proof emax_gt_1 prec emax Hp Hpe.
  apply (minus_bf_le Bone b 0); [lia|lia|apply bf_one|exact Hb|].
  rewrite Bone_correct. apply Hb.
Qed.

Lemma mult_bf (x y : float) (a b : Z) : (0 <= a)%Z -> (0 <= b)%Z -> (a + b < emax)%Z -> bf a x -> bf b y ->
  bf (a + b) (Bmult mode_NE x y).
Proof.
  intros Ha Hb Hab [Fx Hx] [Fy Hy].
  apply (bf_intro _ (B2R x * B2R y)); [lia|exact Hab| |exact (Bmult_value prec emax Hp Hpe x y Fx Fy)].
  rewrite bpow_plus. split; [apply Rmult_le_pos; lra|apply Rmult_le_compat; lra].
Qed.

Lemma mult_unit_bf (f r : float) (t : Z) : (0 <= t)%Z -> (t < emax)%Z -> is_finite f = true -> 0 <= B2R f <= 1 -> bf t r ->
  bf t (Bmult mode_NE f r) /\ B2R (Bmult mode_NE f r) <= B2R r.
Proof.
  intros Ht Hte Ff Hf [Fr Hr]. assert (0 <= B2R f * B2R r <= B2R r) as Q by nra.
  destruct (Bmult_value prec emax Hp Hpe f r Ff Fr) as [V F].
  { apply (no_ovf prec emax Hp Hpe _ t Ht Hte). rewrite Rabs_pos_eq; lra. }
  split; [split; [exact F|]|]; rewrite V.
  - apply (rnd_range prec emax Hp Hpe _ t Ht). lra.
  - apply (rnd_le_B2R prec emax Hp), Q.
Qed.

Lemma Rdiv_bounds (a b d s : R) : 0 < s -> a * s <= d <= b * s -> a <= d / s <= b.
Proof.
  intros Hs H. unfold Rdiv.
  split; apply Rmult_le_reg_r with s; try exact Hs; rewrite Rmult_assoc, Rinv_l by lra; lra.
Qed.

Lemma div_bf (x s : float) : is_finite x = true -> 0 <= B2R x <= B2R s -> 0 < B2R s -> bf 0 (Bdiv mode_NE x s).
Proof.
  intros Fx Hx Hs. pose proof (emax_gt_1 prec emax Hp Hpe).
  apply (bf_intro _ (B2R x / B2R s)); [lia..| |apply (Bdiv_value prec emax Hp Hpe), Rgt_not_eq; assumption].
  apply Rdiv_bounds; [exact Hs|simpl; lra].
Qed.

Lemma sqrt_bf (p : float) (t : Z) : (0 <= t)%Z -> bf (t + t) p -> bf t (Bsqrt mode_NE p).
Proof.
  intros Ht [Fp Hp']. destruct (Bsqrt_value prec emax Hp Hpe p Fp (proj1 Hp')) as [V F].
  split; [exact F|]. rewrite V. apply (rnd_range prec emax Hp Hpe _ t Ht).
  split; [apply sqrt_pos|]. rewrite <- (sqrt_Rsqr (bpow radix2 t)) by apply bpow_ge_0. apply sqrt_le_1_alt.
  unfold Rsqr. rewrite <- bpow_plus. apply Hp'.
Qed.

Lemma bpow_sum_le (k : Z) (a s : R) : Rabs a <= bpow radix2 k -> 0 <= s <= bpow radix2 (k + 1) ->
  Rabs (a + s) <= bpow radix2 (k + 2) /\ Rabs (a - s) <= bpow radix2 (k + 2).
Proof.
  intros Ha Hs. apply Rabs_le_inv in Ha. rewrite !bpow_plus in * .
  change (bpow radix2 1) with 2 in Hs. change (bpow radix2 2) with 4. pose proof (bpow_gt_0 radix2 k).
  split; apply Rabs_le; lra.
Qed.

Lemma plus_bf_bound (a s : float) (k : Z) : (0 <= k)%Z -> (k + 2 < emax)%Z ->
  is_finite a = true -> Rabs (B2R a) <= bpow radix2 k -> bf (k + 1) s ->
  is_finite (Bplus mode_NE a s) = true /\ Rabs (B2R (Bplus mode_NE a s)) <= bpow radix2 (k + 2) /\
  B2R a <= B2R (Bplus mode_NE a s).
Proof.
  intros Hk Hke Fa Ha [Fs Hs]. destruct (bpow_sum_le k _ _ Ha Hs) as [Q _]. assert (0 <= k + 2)%Z as K2 by lia.
  destruct (Bplus_value prec emax Hp Hpe a s Fa Fs (no_ovf prec emax Hp Hpe _ _ K2 Hke Q)) as [V F]. rewrite V.
  split; [exact F|]. split; [exact (rnd_abs_le prec emax Hp Hpe _ _ K2 Q)|apply (rnd_ge_B2R prec emax Hp); lra].
Qed.

Lemma minus_bf_bound (a s : float) (k : Z) : (0 <= k)%Z -> (k + 2 < emax)%Z ->
  is_finite a = true -> Rabs (B2R a) <= bpow radix2 k -> bf (k + 1) s ->
  is_finite (Bminus mode_NE a s) = true /\ Rabs (B2R (Bminus mode_NE a s)) <= bpow radix2 (k + 2) /\
  B2R (Bminus mode_NE a s) <= B2R a.
Proof.
  intros Hk Hke Fa Ha [Fs Hs]. destruct (bpow_sum_le k _ _ Ha Hs) as [_ Q]. assert (0 <= k + 2)%Z as K2 by lia.
  destruct (Bminus_value prec emax Hp Hpe a s Fa Fs (no_ovf prec emax Hp Hpe _ _ K2 Hke Q)) as [V F]. rewrite V.
  split; [exact F|]. split; [exact (rnd_abs_le prec emax Hp Hpe _ _ K2 Q)|apply (rnd_le_B2R prec emax Hp); lra].
Qed.

Section Sample.
Variables (mn md mx f : float) (k : Z).
Hypothesis Hk : (0 <= k)%Z.
Hypothesis Hke : (2 * k + 3 <= emax)%Z.
Hypotheses (Fmn : is_finite mn = true) (Fmd : is_finite md = true) (Fmx : is_finite mx = true) (Ff : is_finite f = true).
Hypothesis Hord : B2R mn <= B2R md <= B2R mx.
Hypotheses (Bmn : Rabs (B2R mn) <= bpow radix2 k) (Bmx : Rabs (B2R mx) <= bpow radix2 k).
Hypothesis Hf : 0 <= B2R f <= 1.

(* the three differences lie in [0, 2^(k+1)], so do f * range and range - f * range; the product under either square
   root lies in [0, 2^(2k+2)] and the root in [0, 2^(k+1)] *)
Theorem triangular_fl_finite :
  is_finite (triangular_fl mn md mx f) = true /\
  Rabs (B2R (triangular_fl mn md mx f)) <= bpow radix2 (k + 2) /\
  (Bltb (Bmult mode_NE f (Bminus mode_NE mx mn)) (Bminus mode_NE md mn) = true -> B2R mn <= B2R (triangular_fl mn md mx f)) /\
  (Bltb (Bmult mode_NE f (Bminus mode_NE mx mn)) (Bminus mode_NE md mn) = false -> B2R (triangular_fl mn md mx f) <= B2R mx).
Proof.
  assert (Rabs (B2R md) <= bpow radix2 k) as Bmd'.
  { apply Rabs_le. apply Rabs_le_inv in Bmn. apply Rabs_le_inv in Bmx. lra. }
  assert (0 <= k + 1)%Z as K0 by lia. assert (k + 1 < emax)%Z as K1 by lia.
  assert (k + 2 < emax)%Z as K2 by lia. assert (k + 1 + (k + 1) < emax)%Z as KK by lia.
  pose proof (minus_bf md mn k Hk K1 Fmd Fmn Bmd' Bmn (proj1 Hord)) as Ddmm.
  pose proof (minus_bf mx mn k Hk K1 Fmx Fmn Bmx Bmn ltac:(lra)) as Drange.
  pose proof (minus_bf mx md k Hk K1 Fmx Fmd Bmx Bmd' (proj2 Hord)) as Dmm.
  destruct (mult_unit_bf f _ (k + 1)%Z K0 K1 Ff Hf Drange) as [Dfr Lfr].
  unfold triangular_fl. destruct (Bltb _ _).
  - destruct (plus_bf_bound mn _ k Hk K2 Fmn Bmn (sqrt_bf _ _ K0 (mult_bf _ _ _ _ K0 K0 KK Dfr Ddmm))) as (F & B & L).
    split; [exact F|]. split; [exact B|]. split; [intros _; exact L|discriminate].
  - pose proof (minus_bf_le _ _ _ K0 K1 Drange Dfr Lfr) as Dd1.
    destruct (minus_bf_bound mx _ k Hk K2 Fmx Bmx (sqrt_bf _ _ K0 (mult_bf _ _ _ _ K0 K0 KK Dd1 Dmm))) as (F & B & L).
    split; [exact F|]. split; [exact B|]. split; [discriminate|intros _; exact L].
Qed.
End Sample.
End Fmt.
