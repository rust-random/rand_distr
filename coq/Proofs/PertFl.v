(* Proofs/PertFl.v — property C03 at the IEEE level for the last step of Pert::sample (pert.rs:168: beta * range + min) with the
   pre-computed range = max - min of the constructor (pert.rs:151).  For finite min < max of magnitude <= 2^k (k + 2 < emax) and every
   finite Beta draw b in [0, 1] (C03_beta_final_in_unit): the result is a finite float, >= min EXACTLY, and
       <= fl(min + fl(max - min)) <= max + (u + u^2) (max - min) + u |max|      ("inside [min, max] up to 4 ulp of the larger bound"). *)
From Coq Require Import Reals Lra Lia.
From Flocq Require Import Core.Core IEEE754.BinarySingleNaN.
From RD Require Import Proofs.AffineFl Proofs.TriangularFl.
Open Scope R_scope.

Section Fmt.
Variable prec emax : Z.
Context (Hp : Prec_gt_0 prec) (Hpe : Prec_lt_emax prec emax).
Notation float := (binary_float prec emax).
Notation rnd := (rnd prec emax).
Notation u := (AffineFl.u prec).
Notation bf := (bf prec emax).

Definition pert_range_fl (mx mn : float) : float := Bminus mode_NE mx mn.
Definition pert_sample_fl (b range mn : float) : float := Bplus mode_NE (Bmult mode_NE b range) mn.

(* reals: fl(fl(b - a) + a) for floats a <= b; two additions of floats, relative error u each *)
Lemma rnd_range_plus_le (a b : R) :
  generic_format radix2 (afexp prec emax) a -> generic_format radix2 (afexp prec emax) b -> a <= b ->
  rnd (rnd (b - a) + a) <= b + (u + u * u) * (b - a) + u * Rabs b.
Proof.
  intros Fa Fb Hab. pose proof (u_pos prec) as U0.
  pose proof (rnd_plus_error prec emax Hp b (- a) Fb (generic_format_opp _ _ _ Fa)) as E1. fold (b - a) in E1.
  rewrite (Rabs_pos_eq (b - a)) in E1 by lra. set (r := rnd (b - a)) in * .
  pose proof (rnd_plus_error prec emax Hp r a (rnd_format prec emax Hp _) Fa) as E2.
  assert (Rabs (r + a) <= Rabs b + u * (b - a)) as A.
  { replace (r + a) with (b + (r - (b - a))) by ring. eapply Rle_trans; [apply Rabs_triang|]. apply Rplus_le_compat_l, E1. }
  apply Rabs_le_inv in E1. apply Rabs_le_inv in E2.
  assert (u * Rabs (r + a) <= u * (Rabs b + u * (b - a))) as A' by (apply Rmult_le_compat_l; lra).
  lra.
Qed.

Section Sample.
Variables (mn mx b : float) (k : Z).
Hypothesis Hk : (0 <= k)%Z.
Hypothesis Hke : (k + 2 < emax)%Z.
Hypotheses (Fmn : is_finite mn = true) (Fmx : is_finite mx = true) (Fb : is_finite b = true).
Hypothesis Hord : B2R mn <= B2R mx.
Hypotheses (Bmn : Rabs (B2R mn) <= bpow radix2 k) (Bmx : Rabs (B2R mx) <= bpow radix2 k).
Hypothesis Hb : 0 <= B2R b <= 1.

Theorem pert_fl_support :
  let r := pert_range_fl mx mn in
  is_finite (pert_sample_fl b r mn) = true /\
  B2R mn <= B2R (pert_sample_fl b r mn) <= rnd (B2R r + B2R mn) /\
  rnd (B2R r + B2R mn) <= B2R mx + (u + u * u) * (B2R mx - B2R mn) + u * Rabs (B2R mx).
Proof.
  intros r. assert (0 <= k + 1)%Z as K0 by lia. assert (k + 1 < emax)%Z as K1 by lia. assert (0 <= k + 2)%Z as K2 by lia.
  assert (bf (k + 1) r) as Dr by exact (minus_bf prec emax Hp Hpe mx mn k Hk K1 Fmx Fmn Bmx Bmn Hord).
  destruct (mult_unit_bf prec emax Hp Hpe b r (k + 1)%Z K0 K1 Fb Hb Dr) as [[Ft Ht] Lt].
  destruct (bpow_sum_le k _ _ Bmn Ht) as [Q _]. rewrite Rplus_comm in Q.
  destruct (Bplus_value prec emax Hp Hpe _ mn Ft Fmn (no_ovf prec emax Hp Hpe _ _ K2 Hke Q)) as [V F].
  unfold pert_sample_fl. rewrite V. split; [exact F|]. split; [split|].
  - apply (rnd_ge_B2R prec emax Hp). lra.
  - apply (rnd_mono prec emax Hp). lra.
  - assert (B2R r = rnd (B2R mx - B2R mn)) as ->.
    { apply (Bminus_value prec emax Hp Hpe mx mn Fmx Fmn), (no_ovf prec emax Hp Hpe _ _ K0 K1).
      rewrite bpow_plus_1. simpl (IZR radix2). apply Rabs_le_inv in Bmn. apply Rabs_le_inv in Bmx. apply Rabs_le. lra. }
    apply rnd_range_plus_le; [apply B2R_format..|exact Hord].
Qed.
End Sample.
End Fmt.
