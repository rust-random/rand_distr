(* Proofs/PmfGeometric.v — identities behind Geometric (geometric.rs:102-160) and
   StandardGeometric (geometric.rs:190-200).

   Geometric::new (79-97): pi = (1-p)^(2^k) by k squarings.
   sample (129-159):  d = number of leading draws u < pi            P(D = d) = pi^d (1 - pi)
                      m = uniform in [0,2^k) accepted w.p. (1-p)^m   P(M = m) = (1-p)^m / sum_j (1-p)^j
                      return (d << k) + m
   StandardGeometric::sample (190-200): x = random::<u64>().leading_zeros(); result += x;
                      stop when x < 64.                                                        *)
From Coq Require Import Reals Lra Lia Bool.
From RD Require Import Proofs.PmfBinomial.
Open Scope R_scope.

Theorem geometric_pi_lt_1 : forall p k, 0 < p < 1 -> 0 < (1 - p) ^ (2 ^ k) < 1.
Proof.
  intros p k Hp. assert (H2 := Nat.pow_nonzero 2 k ltac:(lia)).
  split; [apply pow_lt; lra|apply pow_lt_1_compat; [lra|lia]].
Qed.

Theorem geometric_split : forall (p : R) (k d m : nat), 0 < p < 1 -> (m < 2 ^ k)%nat ->
  let pi := (1 - p) ^ (2 ^ k) in
  (1 - p) ^ (d * 2 ^ k + m) * p = (pi ^ d * (1 - pi)) * ((1 - p) ^ m * p / (1 - pi)).
Proof.
  intros p k d m Hp Hm pi. subst pi.
  assert (Hpi := geometric_pi_lt_1 p k Hp).
  rewrite pow_add. rewrite (Nat.mul_comm d). rewrite pow_mult.
  field. lra.
Qed.

(* the remainder factor is a probability mass function on [0, 2^k) *)
Lemma geometric_partial_sum : forall (p : R) (N : nat),
  psum (fun m => (1 - p) ^ m * p) N = 1 - (1 - p) ^ N.
Proof.
  intros p N. induction N as [|N IH]; [simpl; ring|].
  cbn [psum]. rewrite IH. simpl. ring.
Qed.

Theorem geometric_block_sum : forall (p : R) (k : nat),
  psum (fun m => (1 - p) ^ m * p) (2 ^ k) = 1 - (1 - p) ^ (2 ^ k).
Proof. intros. apply geometric_partial_sum. Qed.

Lemma psum_scal : forall f c N, psum (fun m => f m / c) N = psum f N / c.
Proof.
  intros f c N. induction N as [|N IH]; [simpl; unfold Rdiv; ring|].
  cbn [psum]. rewrite IH. unfold Rdiv. ring.
Qed.

Theorem geometric_remainder_pmf : forall (p : R) (k : nat), 0 < p < 1 ->
  let pi := (1 - p) ^ (2 ^ k) in
  (forall m, 0 < (1 - p) ^ m * p / (1 - pi)) /\
  psum (fun m => (1 - p) ^ m * p / (1 - pi)) (2 ^ k) = 1.
Proof.
  intros p k Hp pi. assert (Hpi := geometric_pi_lt_1 p k Hp). fold pi in Hpi. split.
  - intros m. apply Rdiv_lt_0_compat; [|lra].
    apply Rmult_lt_0_compat; [apply pow_lt|]; lra.
  - rewrite (psum_scal (fun m => (1 - p) ^ m * p)). rewrite geometric_block_sum. fold pi.
    field. lra.
Qed.

(* the quotient factor is the geometric pmf with success probability 1 - pi;
   d is produced by `while random() < pi { failures += 1 }`, i.e. d failures of probability pi
   followed by one success of probability 1 - pi: pi^d * (1 - pi). Its partial sums: *)
Theorem geometric_quotient_sum : forall (p : R) (k D : nat),
  let pi := (1 - p) ^ (2 ^ k) in
  psum (fun d => pi ^ d * (1 - pi)) D = 1 - pi ^ D.
Proof.
  intros p k D pi. assert (H := geometric_partial_sum (1 - pi) D).
  replace (1 - (1 - pi)) with pi in H by ring. exact H.
Qed.

(* (d << k) + m  is a bijection  nat x [0,2^k) -> nat *)
Theorem geometric_decomp : forall (k x : nat),
  exists d m, (m < 2 ^ k)%nat /\ x = (d * 2 ^ k + m)%nat /\
    forall d' m', (m' < 2 ^ k)%nat -> x = (d' * 2 ^ k + m')%nat -> d' = d /\ m' = m.
Proof.
  intros k x. assert (H2 := Nat.pow_nonzero 2 k ltac:(lia)).
  assert (Hm := Nat.mod_upper_bound x (2 ^ k) H2). assert (Hd := Nat.div_mod x (2 ^ k) H2).
  exists (x / 2 ^ k)%nat, (x mod 2 ^ k)%nat. split; [exact Hm|]. split; [lia|].
  intros d' m' Hm' E. apply (Nat.div_mod_unique (2 ^ k)); lia.
Qed.

Open Scope bool_scope.
Open Scope Z_scope.

Fixpoint Zcount (P : Z -> bool) (n : nat) : Z :=
  match n with
  | O => 0
  | S n' => Zcount P n' + (if P (Z.of_nat n') then 1 else 0)
  end.

Lemma Zcount_range : forall a b n, 0 <= a ->
  Zcount (fun w => (a <=? w) && (w <? b)) n = Z.max 0 (Z.min b (Z.of_nat n) - a).
Proof.
  intros a b n Ha. induction n as [|n IH].
  - simpl. lia.
  - cbn [Zcount]. rewrite IH. rewrite Nat2Z.inj_succ.
    destruct (Z.leb_spec a (Z.of_nat n)); destruct (Z.ltb_spec (Z.of_nat n) b); simpl; lia.
Qed.

(* u64::leading_zeros *)
Definition lz64 (w : Z) : Z := if w =? 0 then 64 else 63 - Z.log2 w.

Theorem lz64_range : forall w x, 0 <= w < 2 ^ 64 -> 0 <= x < 64 ->
  (lz64 w = x <-> 2 ^ (63 - x) <= w < 2 ^ (64 - x)).
Proof.
  intros w x Hw Hx. unfold lz64. destruct (Z.eqb_spec w 0) as [->|Hne].
  - split; [lia|]. intros [H _]. assert (0 < 2 ^ (63 - x)) by (apply Z.pow_pos_nonneg; lia). lia.
  - replace (64 - x) with (Z.succ (63 - x)) by ring. split.
    + intros <-. replace (63 - (63 - Z.log2 w)) with (Z.log2 w) by ring. apply Z.log2_spec. lia.
    + intros H. rewrite (Z.log2_unique w (63 - x) ltac:(lia) H). ring.
Qed.

Theorem lz64_zero : forall w, 0 <= w < 2 ^ 64 -> (lz64 w = 64 <-> w = 0).
Proof.
  intros w Hw. unfold lz64. destruct (Z.eqb_spec w 0) as [->|Hne]; [tauto|].
  split; [|tauto]. intros H. assert (0 <= Z.log2 w) by apply Z.log2_nonneg. lia.
Qed.

Theorem lz64_bits : forall w x, 0 <= w < 2 ^ 64 -> 0 <= x < 64 -> lz64 w = x ->
  Z.testbit w (63 - x) = true /\ forall j, 63 - x < j -> Z.testbit w j = false.
Proof.
  intros w x Hw Hx H. unfold lz64 in H. destruct (Z.eqb_spec w 0) as [->|Hne]; [lia|].
  assert (Hl : Z.log2 w = 63 - x) by lia. rewrite <- Hl. split.
  - apply Z.bit_log2. lia.
  - intros j Hj. apply Z.bits_above_log2; lia.
Qed.

(* among the 2^64 words exactly 2^(63-x) have x leading zeros: P(X = x) = 2^-(x+1) *)
Theorem std_geometric_form : forall x, 0 <= x < 64 ->
  Zcount (fun w => (2 ^ (63 - x) <=? w) && (w <? 2 ^ (64 - x))) (Z.to_nat (2 ^ 64)) = 2 ^ (63 - x).
Proof.
  intros x Hx. rewrite Zcount_range by (apply Z.pow_nonneg; lia).
  rewrite Z2Nat.id by (apply Z.pow_nonneg; lia).
  assert (H1 : 2 ^ (64 - x) = 2 * 2 ^ (63 - x)).
  { replace (64 - x) with (Z.succ (63 - x)) by ring. apply Z.pow_succ_r. lia. }
  assert (H2 : 2 ^ (64 - x) <= 2 ^ 64) by (apply Z.pow_le_mono_r; lia).
  assert (H3 : 0 < 2 ^ (63 - x)) by (apply Z.pow_pos_nonneg; lia).
  lia.
Qed.

Lemma Zcount_ext : forall P Q n, (forall w, 0 <= w < Z.of_nat n -> P w = Q w) ->
  Zcount P n = Zcount Q n.
Proof.
  intros P Q n H. induction n as [|n IH]; [reflexivity|].
  cbn [Zcount]. rewrite IH, H; [reflexivity|lia|]. intros w Hw. apply H. lia.
Qed.

Theorem std_geometric_lz_count : forall x, 0 <= x < 64 ->
  Zcount (fun w => lz64 w =? x) (Z.to_nat (2 ^ 64)) = 2 ^ (63 - x).
Proof.
  intros x Hx. rewrite <- (std_geometric_form x Hx). apply Zcount_ext.
  intros w Hw. rewrite Z2Nat.id in Hw by (apply Z.pow_nonneg; lia).
  apply eq_true_iff_eq. rewrite Z.eqb_eq, andb_true_iff, Z.leb_le, Z.ltb_lt.
  apply lz64_range; assumption.
Qed.

(* exactly one word (zero) makes the loop continue *)
Theorem std_geometric_continue_count :
  Zcount (fun w => lz64 w =? 64) (Z.to_nat (2 ^ 64)) = 1.
Proof.
  rewrite (Zcount_ext _ (fun w => (0 <=? w) && (w <? 1))).
  - rewrite Zcount_range by lia. rewrite Z2Nat.id by (apply Z.pow_nonneg; lia).
    assert (1 <= 2 ^ 64) by (change 1 with (2 ^ 0); apply Z.pow_le_mono_r; lia). lia.
  - intros w Hw. rewrite Z2Nat.id in Hw by (apply Z.pow_nonneg; lia).
    apply eq_true_iff_eq. rewrite Z.eqb_eq, andb_true_iff, Z.leb_le, Z.ltb_lt, lz64_zero by exact Hw.
    lia.
Qed.

Lemma Zcount_def : forall P,
  Zcount P 0 = 0 /\
  forall n, Zcount P (S n) = Zcount P n + (if P (Z.of_nat n) then 1 else 0).
Proof. intros. split; reflexivity. Qed.

Lemma lz64_def : forall w, lz64 w = if w =? 0 then 64 else 63 - Z.log2 w.
Proof. reflexivity. Qed.
