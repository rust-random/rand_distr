(* Proofs/GuardLemmas.v — infrastructure for C04: floats as extended reals, the tests of the
   constructors rewritten in the vocabulary of the specifications, the [agrees] lemmas.        *)
From Coq Require Import ZArith List Bool String Reals Lra Lia.
From Flocq Require Import Core.Core IEEE754.Binary IEEE754.Bits IEEE754.BinarySingleNaN.
From RD Require Import Model.Guards Model.GuardSpec.
Import ListNotations.
Open Scope R_scope.

Section Fmt.
Variable prec emax : Z.
Context (Hp : Prec_gt_0 prec) (Hpe : Prec_lt_emax prec emax).
Notation float := (binary_float prec emax).

(* M = 2^emax bounds every finite float; +-inf are sent to +-M (GuardSpec.M, GuardSpec.ext). *)
Notation M := (M emax).
Notation ext := (ext prec emax).
Lemma M_gt_1 : 1 < M.
Proof.
  unfold GuardSpec.M. change 1 with (bpow radix2 0). apply bpow_lt.
  unfold Prec_gt_0, Prec_lt_emax in *. lia.
Qed.

Lemma finite_bound (x : float) : is_finite x = true -> - M < B2R x < M.
Proof.
  intros F. generalize (abs_B2R_lt_emax prec emax x). fold (GuardSpec.M emax).
  intros H. apply Rabs_lt_inv in H. exact H.
Qed.

Lemma Bltb_cmp (x y : float) : Bltb x y = match Bcompare x y with Some Lt => true | _ => false end.
Proof. reflexivity. Qed.
Lemma Bleb_cmp (x y : float) : Bleb x y = match Bcompare x y with Some Lt | Some Eq => true | _ => false end.
Proof. reflexivity. Qed.
Lemma Beqb_cmp (x y : float) : Beqb x y = match Bcompare x y with Some Eq => true | _ => false end.
Proof. reflexivity. Qed.

Lemma is_finite_not_nan (x : float) : is_finite x = true -> is_nan x = false.
Proof. destruct x; simpl; congruence. Qed.

Lemma ext_finite (x : float) : is_finite x = true -> ext x = B2R x.
Proof. destruct x as [|[|]| |]; try discriminate; reflexivity. Qed.

Lemma one_fin : is_finite (one prec emax Hp Hpe) = true.
Proof. apply is_finite_Bone. Qed.
Lemma v_nan_one : v_nan prec emax (one prec emax Hp Hpe) = false.
Proof. apply is_nan_Bone. Qed.
Lemma one_B2R : B2R (one prec emax Hp Hpe) = 1.
Proof. apply Bone_correct. Qed.
(* comparisons of 1.0 with zeros and infinities compute once its shape is known *)
Lemma one_struct : exists m e H, one prec emax Hp Hpe = B754_finite false m e H.
Proof.
  generalize (is_finite_strict_Bone prec emax Hp Hpe) (Bsign_Bone prec emax Hp Hpe).
  unfold Guards.one. destruct Bone as [|?| |s m e H]; simpl; try discriminate.
  intros _ ->. eauto.
Qed.
Lemma fgt_one_zero : fgt prec emax (one prec emax Hp Hpe) (zero prec emax) = true.
Proof. destruct one_struct as (m & e & H & ->). reflexivity. Qed.
Lemma zero_nan : is_nan (zero prec emax) = false.
Proof. reflexivity. Qed.
Lemma pinf_nan : is_nan (pinf prec emax) = false.
Proof. reflexivity. Qed.

(* The tests of the constructors in the vocabulary of the specifications.
   A test on one float against zero is decided by the float's constructor alone. *)
Lemma not_fgt_zero (x : float) : negb (fgt prec emax x (zero prec emax)) = le0_or_nan prec emax x.
Proof. destruct x as [[|]|[|]| |[|] m e H]; reflexivity. Qed.

Lemma fle_zero_inf_nan (x : float) :
  fle prec emax x (zero prec emax) || f_is_infinite prec emax x || f_is_nan prec emax x
  = not_finite_positive prec emax x.
Proof. destruct x as [[|]|[|]| |[|] m e H]; reflexivity. Qed.

Lemma inf_or_nan (x : float) :
  f_is_infinite prec emax x || f_is_nan prec emax x = v_inf prec emax x || v_nan prec emax x.
Proof. destruct x as [[|]|[|]| |[|] m e H]; reflexivity. Qed.

Lemma not_finite_or_not_pos (x : float) :
  negb (f_is_finite prec emax x) || negb (fgt prec emax x (zero prec emax))
  = negb (v_fin prec emax x) || v_le prec emax x (zero prec emax).
Proof. destruct x as [[|]|[|]| |[|] m e H]; reflexivity. Qed.

(* Two floats.  The operators of the code are those of the specification, `>` and `>=` with the
   arguments exchanged. *)
Lemma flt_lt (x y : float) : flt prec emax x y = v_lt prec emax x y.
Proof. reflexivity. Qed.
Lemma fle_le (x y : float) : fle prec emax x y = v_le prec emax x y.
Proof. reflexivity. Qed.
Lemma fgt_lt (x y : float) : fgt prec emax x y = v_lt prec emax y x.
Proof. unfold fgt, fcmp, v_lt. rewrite Bltb_cmp, (Bcompare_swap _ _ x y). now destruct (Bcompare x y) as [[]|]. Qed.
Lemma fge_le (x y : float) : fge prec emax x y = v_le prec emax y x.
Proof. unfold fge, fcmp, v_le. rewrite Bleb_cmp, (Bcompare_swap _ _ x y). now destruct (Bcompare x y) as [[]|]. Qed.

(* The order is total on non-NaN values: a comparison has no answer exactly when one side is NaN,
   and exchanging the sides reverses the answer. *)
Lemma nan_cmp (x y : float) :
  v_nan prec emax x || v_nan prec emax y = match Bcompare x y with None => true | Some _ => false end.
Proof. destruct x, y; reflexivity. Qed.

Lemma not_v_le (x y : float) :
  negb (v_le prec emax x y) = v_lt prec emax y x || v_nan prec emax x || v_nan prec emax y.
Proof.
  unfold v_le, v_lt. rewrite <- orb_assoc, nan_cmp, Bleb_cmp, Bltb_cmp, (Bcompare_swap _ _ x y).
  now destruct (Bcompare x y) as [[]|].
Qed.

Lemma not_v_lt (x y : float) :
  negb (v_lt prec emax x y) = v_le prec emax y x || v_nan prec emax x || v_nan prec emax y.
Proof.
  unfold v_le, v_lt. rewrite <- orb_assoc, nan_cmp, Bleb_cmp, Bltb_cmp, (Bcompare_swap _ _ x y).
  now destruct (Bcompare x y) as [[]|].
Qed.

Lemma v_le_lt_eq (x y : float) : v_le prec emax x y = v_lt prec emax x y || v_eq prec emax x y.
Proof. unfold v_le, v_lt, v_eq. rewrite Bleb_cmp, Bltb_cmp, Beqb_cmp. now destruct (Bcompare x y) as [[]|]. Qed.

End Fmt.


(* A chain of guards against a specification.
   `chain l` returns the variant of the first test of l that holds.  A constructor whose tests are,
   one by one, the documented conditions agrees with the specification built from them. *)
Fixpoint chain (l : list (bool * string)) : gres :=
  match l with [] => GOk | (c, v) :: r => if c then GErr v else chain r end.

Lemma chain_spec must may unspec : agrees (chain must) (spec_of must may unspec).
Proof.
  induction must as [|[[|] v] r IH]; cbn.
  - unfold spec_of; cbn. destruct (collect may), unspec; exact I.
  - now left.
  - exact IH.
Qed.

Lemma chain_no_panic l : chain l <> GPanic.
Proof. induction l as [|[[|] v] r IH]; [discriminate..|exact IH]. Qed.

(* For the constructors whose tests are only implied by the documented conditions: an error is
   justified by a documented condition of that variant that holds, success by none holding. *)
Definition allowed (v : string) (l : list (bool * string)) : bool :=
  existsb (fun p => String.eqb (snd p) v && fst p) l.

Lemma agrees_err v must may unspec :
  allowed v (must ++ may) = true -> agrees (GErr v) (spec_of must may unspec).
Proof.
  intros A. assert (J : In v (collect must ++ collect may)).
  { unfold collect. rewrite <- map_app, <- filter_app. apply existsb_exists in A as [[c w] [Hin E]].
    apply andb_prop in E as [E C]. apply String.eqb_eq in E. cbn in C, E. subst.
    apply (in_map snd _ _ (proj2 (filter_In fst (true, v) _) (conj Hin eq_refl))). }
  unfold spec_of. destruct (collect must); [destruct (collect may); [destruct J|exact I]|exact J].
Qed.

Lemma collect_none must : forallb (fun p => negb (fst p)) must = true -> collect must = [].
Proof. unfold collect. induction must as [|[[|] v] r IH]; [reflexivity|discriminate|exact IH]. Qed.

Lemma agrees_ok must may unspec :
  forallb (fun p => negb (fst p)) must = true -> agrees GOk (spec_of must may unspec).
Proof. intros H. unfold spec_of. rewrite (collect_none _ H). destruct (collect may), unspec; exact I. Qed.

(* in an unspecified region every answer but a panic agrees *)
Lemma agrees_unspec r must may :
  r <> GPanic -> forallb (fun p => negb (fst p)) must = true -> agrees r (spec_of must may true).
Proof.
  intros P H. unfold spec_of. rewrite (collect_none _ H). destruct r, (collect may); try exact I; now elim P.
Qed.

Lemma agrees_unspecified_ok : agrees GOk Unspecified.
Proof. exact I. Qed.
