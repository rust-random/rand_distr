(* Proofs/DirichletSumFl.v — property C11 at the IEEE level, the "summing to 1" clause for DirichletFromBeta's stick-breaking loop
   (dirichlet.rs:163-174): with Beta draws that are finite floats in [0, 1], the REAL sum of the float components differs from 1
   by at most  len(betas) * (2u + 3 eta),  u = 2^-prec, eta = half the least subnormal - "within a few ulp" quantified, for vectors
   of any length.  Each step loses at most 2u + 3 eta:  out + acc' - acc  with out = fl(acc*b), acc' = fl(acc * fl(1 - b)).       *)
From Coq Require Import Reals List Lra Lia.
From Flocq Require Import Core.Core IEEE754.BinarySingleNaN.
From RD Require Import Proofs.AffineFl Proofs.TriangularFl Proofs.BetaFinalFl Proofs.DirichletFl.
Open Scope R_scope.

Section Fmt.
Variable prec emax : Z.
Context (Hp : Prec_gt_0 prec) (Hpe : Prec_lt_emax prec emax).
Notation float := (binary_float prec emax).
Notation rnd := (AffineFl.rnd prec emax).
Notation u := (AffineFl.u prec).
Notation eta := (AffineFl.eta prec emax).
Notation in_unit := (in_unit prec emax).
Notation sticks_fl := (sticks_fl prec emax Hp Hpe).

Definition sumR (l : list float) : R := fold_right (fun x s => B2R x + s) 0 l.

(* reals: out + acc' - acc with out = fl(a x), acc' = fl(a fl(1 - x)); the three roundings lose u a x + eta,
   a (u (1 - x) + eta) and u a fl(1 - x) + eta, and a, a x, a fl(1 - x) <= 1 *)
Lemma stick_step_real (a x : R) : 0 <= a <= 1 -> 0 <= x <= 1 ->
  Rabs (rnd (a * x) + rnd (a * rnd (1 - x)) - a) <= 2 * u + 3 * eta.
Proof.
  intros Ha Hx. pose proof (u_pos prec) as U0. pose proof (eta_pos prec emax) as E0.
  assert (0 <= rnd (1 - x) <= 1) as Ht by (apply (rnd_range prec emax Hp Hpe _ 0 (Z.le_refl 0)); simpl; lra).
  pose proof (rnd_encl prec emax Hp (1 - x) ltac:(lra)) as E2. set (t := rnd (1 - x)) in * .
  pose proof (Rmult_le_pos a x (proj1 Ha) (proj1 Hx)) as P1. pose proof (Rmult_le_pos a t (proj1 Ha) (proj1 Ht)) as P3.
  pose proof (Rmult_le_compat_r x a 1 (proj1 Hx) (proj2 Ha)) as Q1.
  pose proof (Rmult_le_compat_r t a 1 (proj1 Ht) (proj2 Ha)) as Q3.
  pose proof (rnd_encl prec emax Hp (a * x) P1) as E1. pose proof (rnd_encl prec emax Hp (a * t) P3) as E3.
  assert (a * ((1 - x) * (1 - u) - eta) <= a * t <= a * ((1 - x) * (1 + u) + eta)) as B2
    by (split; apply Rmult_le_compat_l; lra).
  assert (0 <= u * (1 - x)) as P by (apply Rmult_le_pos; lra).
  assert (a * (u * (1 - x) + eta) <= 1 * (u * (1 - x) + eta)) as B2' by (apply Rmult_le_compat_r; lra).
  assert (u * (a * x) <= u * x) as B1 by (apply Rmult_le_compat_l; lra).
  assert (u * (a * t) <= u * 1) as B3 by (apply Rmult_le_compat_l; lra).
  apply Rabs_le. lra.
Qed.

Lemma mult_unit_value (x y : float) : in_unit x -> in_unit y -> B2R (Bmult mode_NE x y) = rnd (B2R x * B2R y).
Proof.
  intros [Fx Hx] [Fy Hy]. pose proof (emax_gt_1 prec emax Hp Hpe).
  apply (Bmult_value prec emax Hp Hpe x y Fx Fy), (no_ovf prec emax Hp Hpe _ 0); [lia..|].
  simpl. rewrite Rabs_pos_eq; nra.
Qed.

Lemma one_minus_value (b : float) : in_unit b -> B2R (Bminus mode_NE Bone b) = rnd (1 - B2R b).
Proof.
  intros [Fb Hb]. pose proof (emax_gt_1 prec emax Hp Hpe). rewrite <- (Bone_correct prec emax Hp Hpe).
  apply (Bminus_value prec emax Hp Hpe Bone b (is_finite_Bone prec emax Hp Hpe) Fb), (no_ovf prec emax Hp Hpe _ 0); [lia..|].
  rewrite Bone_correct. simpl. rewrite Rabs_pos_eq; lra.
Qed.

Lemma stick_step (acc b : float) : in_unit acc -> in_unit b ->
  Rabs (B2R (Bmult mode_NE acc b) + B2R (Bmult mode_NE acc (Bminus mode_NE Bone b)) - B2R acc) <= 2 * u + 3 * eta.
Proof.
  intros Ha Hb.
  rewrite (mult_unit_value acc b Ha Hb), (mult_unit_value acc _ Ha (one_minus_bf prec emax Hp Hpe b Hb)).
  rewrite (one_minus_value b Hb). apply stick_step_real; [apply Ha|apply Hb].
Qed.

Theorem sticks_fl_sum (betas : list float) : forall acc, in_unit acc -> Forall in_unit betas ->
  Rabs (sumR (sticks_fl acc betas) - B2R acc) <= INR (length betas) * (2 * u + 3 * eta).
Proof.
  induction betas as [|b r IH]; intros acc Ha Hb.
  - cbn [DirichletFl.sticks_fl sumR fold_right length INR]. replace (B2R acc + 0 - B2R acc) with 0 by ring. rewrite Rabs_R0. lra.
  - apply Forall_cons_iff in Hb. destruct Hb as [Hb Hr].
    pose proof (mult_in_unit prec emax Hp Hpe acc _ Ha (one_minus_bf prec emax Hp Hpe b Hb)) as Ha'.
    specialize (IH _ Ha' Hr). pose proof (stick_step acc b Ha Hb) as St.
    change (sumR (sticks_fl acc (b :: r))) with
      (B2R (Bmult mode_NE acc b) + sumR (sticks_fl (Bmult mode_NE acc (Bminus mode_NE Bone b)) r)).
    change (length (b :: r)) with (S (length r)). rewrite S_INR.
    set (acc' := Bmult mode_NE acc (Bminus mode_NE Bone b)) in * .
    replace (B2R (Bmult mode_NE acc b) + sumR (sticks_fl acc' r) - B2R acc)
      with ((B2R (Bmult mode_NE acc b) + B2R acc' - B2R acc) + (sumR (sticks_fl acc' r) - B2R acc')) by ring.
    eapply Rle_trans; [apply Rabs_triang|]. lra.
Qed.

Corollary dirichlet_sum_fl (betas : list float) : Forall in_unit betas ->
  Rabs (sumR (sticks_fl Bone betas) - 1) <= INR (length betas) * (2 * u + 3 * eta).
Proof.
  intros H. rewrite <- (Bone_correct prec emax Hp Hpe) at 1. apply sticks_fl_sum; [apply bf_one|exact H].
Qed.
End Fmt.
