(* Proofs/GuardProofs6.v — C04: binary64 / binary32 instances of the format-generic theorems whose
   hypotheses are facts about literal constants (discharged by computation), and the concrete
   refutation witnesses for Hypergeometric::new.                                                *)
From Coq Require Import ZArith List Bool String Reals Lra Lia.
From Flocq Require Import Core.Core IEEE754.Binary IEEE754.Bits IEEE754.BinarySingleNaN.
From RD Require Import Model.Guards Model.GuardSpec Proofs.GuardLemmas Proofs.AffineFl Proofs.GuardArith
                       Proofs.GuardProofs2 Proofs.GuardProofs3 Proofs.GuardProofs4 Proofs.GuardProofs5.
Import ListNotations.
Open Scope R_scope.

Theorem NormalInverseGaussian_new_sound64 (alpha beta : f64) :
  agrees (NormalInverseGaussian_new 53 1024 Hp64 Hpe64 alpha beta)
         (spec_NormalInverseGaussian_new 53 1024 alpha beta).
Proof. apply NormalInverseGaussian_new_sound. lia. Qed.
Theorem NormalInverseGaussian_new_sound32 (alpha beta : f32) :
  agrees (NormalInverseGaussian_new 24 128 Hp32 Hpe32 alpha beta)
         (spec_NormalInverseGaussian_new 24 128 alpha beta).
Proof. apply NormalInverseGaussian_new_sound. lia. Qed.

Lemma half_SF64 : B2SF (half 53 1024 Hp64 Hpe64) = SpecFloat.S754_finite false 4503599627370496 (-53).
Proof. const_SF. Qed.
Lemma ten_SF64 : B2SF (ten 53 1024 Hp64 Hpe64) = SpecFloat.S754_finite false 5629499534213120 (-49).
Proof. const_SF. Qed.
Lemma umax_SF64 : B2SF (of_Z 53 1024 Hp64 Hpe64 u64_max) = SpecFloat.S754_finite false 4503599627370496 12.
Proof. const_SF. Qed.
Lemma c63_SF64 : B2SF (of_Z 53 1024 Hp64 Hpe64 9223372036854775808) = SpecFloat.S754_finite false 4503599627370496 11.
Proof. const_SF. Qed.
Lemma c15_SF64 : B2SF (of_Z 53 1024 Hp64 Hpe64 13835058055282163712) = SpecFloat.S754_finite false 6755399441055744 11.
Proof. const_SF. Qed.

Theorem Binomial_new_sound64 (n : Z) (p : f64) :
  (0 <= n <= u64_max)%Z ->
  agrees (Binomial_new 53 1024 Hp64 Hpe64 n p) (spec_Binomial_new 53 1024 Hp64 Hpe64 n p).
Proof.
  apply Binomial_new_sound.
  - exact (finite_of_SF _ _ _ _ _ _ half_SF64).
  - const_val half_SF64.
  - exact (finite_of_SF _ _ _ _ _ _ umax_SF64).
  - const_val umax_SF64.
  - assert (V : B2R (of_Z 53 1024 Hp64 Hpe64 9223372036854775808) = 9223372036854775808) by const_val c63_SF64.
    rewrite <- V. apply rnd_B2R.
  - assert (V : B2R (of_Z 53 1024 Hp64 Hpe64 13835058055282163712) = 13835058055282163712) by const_val c15_SF64.
    rewrite <- V. apply rnd_B2R.
Qed.

(* Hypergeometric: concrete panics of the (debug-build) model = of the real code *)
Definition u64_MAX : Z := 18446744073709551615.
Open Scope Z_scope.

(* new(u64::MAX, u64::MAX, u64::MAX): `min_all + 1` overflows (finding F2b) *)
Theorem Hypergeometric_new_witness_min_all :
  hyper_known2 u64_MAX u64_MAX u64_MAX = true /\
  Hypergeometric_new_gen 53 1024 Hp64 Hpe64 true hyper_cap u64_MAX u64_MAX u64_MAX = Some GPanic.
Proof. split; vm_compute; reflexivity. Qed.

(* new(u64::MAX, u64::MAX - 1, 2^63): `offset_x += n1 as i64 * sign_x` overflows i64 *)
Theorem Hypergeometric_new_witness_offset :
  hyper_known1 u64_MAX (u64_MAX - 1) 9223372036854775808 = true /\
  Hypergeometric_new_gen 53 1024 Hp64 Hpe64 true hyper_cap u64_MAX (u64_MAX - 1) 9223372036854775808 = Some GPanic.
Proof. split; vm_compute; reflexivity. Qed.

(* GPanic agrees with no expectation *)
Lemma GPanic_never_agrees (e : expect) : ~ agrees GPanic e.
Proof. destruct e; simpl; tauto. Qed.

Theorem Hypergeometric_new_refuted :
  exists N K n r, is_u64 N /\ is_u64 K /\ is_u64 n /\
    Hypergeometric_new_gen 53 1024 Hp64 Hpe64 true hyper_cap N K n = Some r /\
    ~ agrees r (spec_Hypergeometric_new N K n).
Proof.
  exists u64_MAX, u64_MAX, u64_MAX, GPanic. unfold is_u64, u64_max, u64_MAX.
  split; [lia|split; [lia|split; [lia|split]]].
  - vm_compute. reflexivity.
  - apply GPanic_never_agrees.
Qed.

(* the whole class known1 panics in a debug build, in every format and for every cap *)
Theorem Hypergeometric_new_known1_panics (prec emax : Z) (Hp : Prec_gt_0 prec) (Hpe : Prec_lt_emax prec emax)
  (cap N K n : Z) :
  is_u64 N -> is_u64 K -> is_u64 n -> hyper_known1 N K n = true ->
  Hypergeometric_new_gen prec emax Hp Hpe true cap N K n = Some GPanic.
Proof.
  unfold is_u64, u64_max, hyper_known1. intros HN HK Hn H.
  unfold Hypergeometric_new_gen.
  replace (K >? N) with false by lia. replace (n >? N) with false by lia.
  replace (K >? N - K) with true by lia. cbv beta iota zeta.
  replace (n <=? N / 2) with false by lia. unfold as_i64, in_i64.
  replace (n <? 9223372036854775808) with false by lia.
  replace (N - K <? 9223372036854775808) with true by lia.
  replace (-9223372036854775808 <=? n - 18446744073709551616 + (N - K) * -1) with false by lia.
  reflexivity.
Qed.
