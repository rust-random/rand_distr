(* Proofs/RunSound.v — soundness of the interval exploration `interpI` (Base/Run.v) with
   respect to the exact real-number semantics `evals`: the path taken by the exact
   semantics is among the explored paths unless the exploration was cut (OAmb).        *)
From Coq Require Import Reals List Lia.
From Interval Require Import Xreal Interval Basic Specific_bigint Generic.
From Flocq Require Import Core.
From Bignums Require Import BigZ.
From RD Require Import Base.Expr Base.Run.
Import ListNotations.

Section Decide.
Variable prec : F.precision.

(* ilt_correct / ile_correct state the verdict of an interval test against a proposition; rcmp decides the same one *)
Lemma tri_dec (t : tri) (P : Prop) (d : {P} + {~ P}) :
  match t with TT => P | TF => ~ P | TU => True end ->
  (t = TT -> (if d then true else false) = true) /\ (t = TF -> (if d then true else false) = false).
Proof. destruct t, d; split; intros E; try discriminate E; try reflexivity; tauto. Qed.

Lemma decide_correct c ia ib x y :
  contains (I.convert ia) (Xreal x) -> contains (I.convert ib) (Xreal y) ->
  (decide prec c ia ib = TT -> rcmp c x y = true) /\
  (decide prec c ia ib = TF -> rcmp c x y = false).
Proof.
  intros Ha Hb. destruct c; cbn [decide rcmp]; apply tri_dec;
    [apply ilt_correct|apply ile_correct|apply ilt_correct|apply ile_correct]; assumption.
Qed.
End Decide.

(* the bounds produced by I.nearbyint have a non-negative exponent *)
Definition fexp_nonneg (f : F.type) : Prop :=
  match f with
  | Specific_ops.Fnan => True
  | Specific_ops.Float _ e => (0 <= BigIntRadix2.EtoZ e)%Z
  end.

Lemma float_aux_exp s m e : (0 <= BigIntRadix2.EtoZ e)%Z -> fexp_nonneg (F.float_aux s m e).
Proof. intros H. unfold F.float_aux, fexp_nonneg. exact H. Qed.

Lemma zero_exp : fexp_nonneg F.zero.
Proof. unfold F.zero, fexp_nonneg. cbn. lia. Qed.

Lemma nearbyint_exp mode f : fexp_nonneg (F.nearbyint mode f).
Proof.
  unfold F.nearbyint. destruct f as [|m e]; [exact I|].
  destruct (BigIntRadix2.mantissa_sign m) as [|s m0]; [apply zero_exp|].
  unfold F.round_at_exp_aux.
  assert (Z0 : BigIntRadix2.EtoZ BigIntRadix2.exponent_zero = 0%Z) by reflexivity.
  rewrite BigIntRadix2.exponent_cmp_correct.
  change (BigIntRadix2.MtoZ (BigIntRadix2.exponent_sub BigIntRadix2.exponent_zero e))
    with (BigZ.to_Z (BigZ.sub BigIntRadix2.exponent_zero e)).
  rewrite BigIntRadix2.exponent_sub_correct.
  change (BigIntRadix2.MtoZ BigIntRadix2.exponent_zero) with 0%Z.
  change (BigZ.to_Z BigIntRadix2.exponent_zero) with 0%Z.
  destruct (Z.compare_spec (0 - BigZ.to_Z e) 0) as [H|H|H].
  - apply float_aux_exp. unfold BigIntRadix2.EtoZ. lia.
  - apply float_aux_exp. unfold BigIntRadix2.EtoZ. lia.
  - destruct (BigIntRadix2.exponent_cmp _ _).
    + destruct (need_change_zero _ _ _); [apply float_aux_exp; rewrite Z0; lia|apply zero_exp].
    + destruct (need_change_zero _ _ _); [apply float_aux_exp; rewrite Z0; lia|apply zero_exp].
    + destruct (BigIntRadix2.mantissa_shr _ _ _). apply float_aux_exp; rewrite Z0; lia.
Qed.

Lemma FtoR_nonneg_exp s m e : (0 <= e)%Z ->
  FtoR radix2 s m e = IZR ((if s then Z.neg m else Z.pos m) * 2 ^ e).
Proof.
  intros H. unfold FtoR. destruct e as [|q|q].
  - rewrite Z.pow_0_r, Z.mul_1_r. reflexivity.
  - rewrite Z.pow_pos_fold. reflexivity.
  - lia.
Qed.

Lemma toF_exp f s m e : fexp_nonneg f -> F.toF f = Basic.Float s m e -> (0 <= e)%Z.
Proof.
  unfold F.toF, fexp_nonneg. destruct f as [|m0 e0]; [discriminate|].
  destruct (BigIntRadix2.mantissa_sign m0); [discriminate|].
  intros H E. inversion E. subst. exact H.
Qed.

Lemma toX_of_toF_float f s m e : fexp_nonneg f -> F.toF f = Basic.Float s m e ->
  F.toX f = Xreal (IZR ((if s then Z.neg m else Z.pos m) * 2 ^ e)).
Proof.
  intros H E. unfold F.toX. rewrite E. cbn [FtoX]. f_equal.
  change F.radix with radix2. apply FtoR_nonneg_exp. eapply toF_exp; eauto.
Qed.

Lemma toX_of_toF_zero f : F.toF f = Basic.Fzero -> F.toX f = Xreal 0.
Proof. intros E. unfold F.toX. rewrite E. reflexivity. Qed.

Lemma floor_range_correct i lo hi x :
  floor_range i = Some (lo, hi) -> contains (I.convert i) (Xreal x) ->
  (lo <= Zfloor x <= hi)%Z.
Proof.
  intros E H.
  pose proof (I.nearbyint_correct rnd_DN i (Xreal x) H) as C.
  cbn [Xlift Xbind Rnearbyint] in C.
  unfold floor_range in E.
  destruct i as [|l u]; [discriminate E|].
  cbn [I.nearbyint] in C, E.
  unfold I.convert in C. cbn [I.F.valid_lb I.F.valid_ub F.valid_lb F.valid_ub andb] in C.
  change (I.F.nearbyint_DN rnd_DN l) with (F.nearbyint rnd_DN l) in *.
  change (I.F.nearbyint_UP rnd_DN u) with (F.nearbyint rnd_DN u) in *.
  pose proof (nearbyint_exp rnd_DN l) as Hl. pose proof (nearbyint_exp rnd_DN u) as Hu.
  set (l' := F.nearbyint rnd_DN l) in *. set (u' := F.nearbyint rnd_DN u) in *.
  change (I.F.toX l') with (F.toX l') in C. change (I.F.toX u') with (F.toX u') in C.
  destruct (F.toF l') as [| |[|] ml el] eqn:El; try discriminate E;
  destruct (F.toF u') as [| |[|] mu eu] eqn:Eu; try discriminate E;
  inversion E; subst; clear E;
  rewrite ?(toX_of_toF_zero _ El), ?(toX_of_toF_zero _ Eu),
          ?(toX_of_toF_float _ _ _ _ Hl El), ?(toX_of_toF_float _ _ _ _ Hu Eu) in C;
  cbn [contains] in C; destruct C as [C1 C2]; split; apply le_IZR; assumption.
Qed.

Lemma evals_Ask_iff {A} c a b (k : bool -> run A) x y v : evalX a = Xreal x -> evalX b = Xreal y ->
  (evals (Ask c a b k) v <-> evals (k (rcmp c x y)) v).
Proof.
  intros Ea Eb. split; [|exact (EvAsk c a b k x y v Ea Eb)].
  intros H. inversion H as [|? ? ? ? x' y' ? Ea' Eb' H'|]; subst.
  rewrite Ea in Ea'. rewrite Eb in Eb'. injection Ea' as <-. injection Eb' as <-. exact H'.
Qed.
Lemma evals_Floor_iff {A} e (k : Z -> run A) x v : evalX e = Xreal x ->
  (evals (AskFloor e k) v <-> evals (k (Zfloor x)) v).
Proof.
  intros Ee. split; [|exact (EvFloor e k x v Ee)].
  intros H. inversion H as [| |? ? x' ? Ee' H']; subst. rewrite Ee in Ee'. injection Ee' as <-. exact H'.
Qed.

Theorem evals_deterministic : forall A (r : run A) v1 v2, evals r v1 -> evals r v2 -> v1 = v2.
Proof.
  intros A r v1 v2 H1. revert v2.
  induction H1 as [a|c a b k x y v Ea Eb H IH|e k x v Ee H IH]; intros v2 H2.
  - inversion H2; reflexivity.
  - apply IH, (evals_Ask_iff c a b k x y v2 Ea Eb), H2.
  - apply IH, (evals_Floor_iff e k x v2 Ee), H2.
Qed.

Theorem bind_evals : forall A B (r : run A) (f : A -> run B) a b,
  evals r a -> evals (f a) b -> evals (bind r f) b.
Proof.
  intros A B r f a b H. induction H as [a|c a0 b0 k x y v Ea Eb H IH|e k x v Ee H IH]; intros Hf; cbn [bind].
  - exact Hf.
  - eapply EvAsk; eauto.
  - eapply EvFloor; eauto.
Qed.

Theorem bind_evals_inv : forall A B (r : run A) (f : A -> run B) b,
  evals (bind r f) b -> exists a, evals r a /\ evals (f a) b.
Proof.
  intros A B r f b. induction r as [a|c a0 b0 k IH|e k IH|code]; cbn [bind]; intros H.
  - exists a. split; [constructor|exact H].
  - inversion H as [|c' a' b' k' x y v Ea Eb H'|]; subst.
    destruct (IH _ H') as [a [H1 H2]]. exists a. split; [eapply EvAsk; eauto|exact H2].
  - inversion H as [| |e' k' x v Ee H']; subst.
    destruct (IH _ H') as [a [H1 H2]]. exists a. split; [eapply EvFloor; eauto|exact H2].
  - inversion H.
Qed.

Corollary bind_evals_iff : forall A B (r : run A) (f : A -> run B) b,
  evals (bind r f) b <-> exists a, evals r a /\ evals (f a) b.
Proof.
  intros; split; [apply bind_evals_inv|]. intros [a [H1 H2]]. eapply bind_evals; eauto.
Qed.

Lemma evals_Fail_inv : forall A code (v : A), ~ evals (Fail code) v.
Proof. intros A code v H; inversion H. Qed.
Lemma evals_Ret_inv : forall A (a v : A), evals (Ret a) v -> v = a.
Proof. intros A a v H; inversion H; reflexivity. Qed.

Section Sound.
Variable A : Type.
Variable prec : F.precision.
Variable p eta : Z.

Lemma ev_sound e x : evalX e = Xreal x -> contains (I.convert (ev prec p eta e)) (Xreal x).
Proof. intros E. rewrite <- E. apply evalI_sound. Qed.

(* v is among the outcomes, or the exploration was cut *)
Definition covers (v : A) (l : list (outc A)) : Prop := In (OVal v) l \/ In OAmb l.

Lemma covers_amb v : covers v [OAmb].
Proof. right. left. reflexivity. Qed.

Lemma covers_app v l1 l2 : covers v l1 \/ covers v l2 -> covers v (l1 ++ l2).
Proof. unfold covers. rewrite !in_app_iff. tauto. Qed.

Theorem interpI_sound : forall (r : run A) v forks, evals r v ->
  In (OVal v) (interpI prec p eta r forks) \/ In OAmb (interpI prec p eta r forks).
Proof.
  intros r v forks H. change (covers v (interpI prec p eta r forks)). revert forks.
  induction H as [a|c a b k x y v Ea Eb H IH|e k x v Ee H IH]; intros forks; cbn [interpI].
  - left. left. reflexivity.
  - destruct (decide_correct prec c _ _ _ _ (ev_sound _ _ Ea) (ev_sound _ _ Eb)) as [HT HF].
    destruct (decide prec c (ev prec p eta a) (ev prec p eta b)).
    + rewrite <- (HT eq_refl). apply IH.
    + rewrite <- (HF eq_refl). apply IH.
    + destruct forks as [|f]; [apply covers_amb|].
      apply covers_app. destruct (rcmp c x y); [left|right]; apply IH.
  - destruct (floor_range (ev prec p eta e)) as [[lo hi]|] eqn:FR; [|apply covers_amb].
    pose proof (floor_range_correct _ _ _ _ FR (ev_sound _ _ Ee)) as B.
    destruct (Z.eqb_spec lo hi) as [E1|N1].
    + assert (Zfloor x = lo) as <- by lia. apply IH.
    + destruct (Z.eqb_spec hi (lo + 1)) as [E2|N2]; [|apply covers_amb].
      destruct forks as [|f]; [apply covers_amb|].
      apply covers_app. assert (Zfloor x = lo \/ Zfloor x = hi) as [<-|<-] by lia; [left|right]; apply IH.
Qed.

Corollary interpI_no_amb_complete : forall (r : run A) v forks, evals r v ->
  ~ In OAmb (interpI prec p eta r forks) -> In (OVal v) (interpI prec p eta r forks).
Proof. intros r v forks H N. destruct (interpI_sound r v forks H); tauto. Qed.

Corollary interpI_singleton : forall (r : run A) v w forks, evals r v ->
  interpI prec p eta r forks = [OVal w] -> v = w.
Proof.
  intros r v w forks H E. destruct (interpI_sound r v forks H) as [G|G]; rewrite E in G;
  destruct G as [G|[]]; inversion G; reflexivity.
Qed.

Corollary interpI_forall : forall (P : A -> Prop) (r : run A) v forks, evals r v ->
  Forall (fun o => match o with OVal a => P a | OFail _ => True | OAmb => False end)
         (interpI prec p eta r forks) -> P v.
Proof.
  intros P r v forks H F. rewrite Forall_forall in F.
  destruct (interpI_sound r v forks H) as [G|G]; apply F in G; [exact G|contradiction].
Qed.

End Sound.
