(* Proofs/RejectIdentities.v — algebraic identities behind the transformation samplers of rand_distr
   (ideal real arithmetic, all parameters):

   1. Inverse Gaussian, Michael–Schucany–Haas (inverse_gaussian.rs:91-112)
        v = StandardNormal;  y = mu v v;  x = mu + mu/(2 l) * (y - sqrt (4 l y + y y));
        u = StandardUniform; if u <= mu / (mu + x) { return x };  mu mu / x
      ig_roots_product, ig_x2_closed, ig_roots_solve, ig_x1_pos, ig_choice_prob_range, ig_choice_prob
   2. Skew normal (skew_normal.rs:142-161): skew_repr and the shortcuts for shape 0, 1, -1
   3. chi_squared.rs (k = 1), student_t.rs, fisher_f.rs, pert.rs, normal_inverse_gaussian.rs,
      normal.rs (Normal, LogNormal): algebraic forms and the events they define.                       *)
From Coq Require Import Reals Lra.
From RD Require Import Proofs.RejectTools.
Open Scope R_scope.

Definition ig_y (mu v : R) : R := mu * v * v.
Definition ig_s (mu l v : R) : R := sqrt (4 * l * ig_y mu v + ig_y mu v * ig_y mu v).
Definition ig_x1 (mu l v : R) : R := mu + mu / (2 * l) * (ig_y mu v - ig_s mu l v).
Definition ig_x2 (mu l v : R) : R := mu * mu / ig_x1 mu l v.
(* the transformation whose square root is standard normal for X ~ IG(mu, l) *)
Definition ig_g (mu l x : R) : R := l * (x - mu) ^ 2 / (mu ^ 2 * x).

Lemma ig_defs : forall mu l v x,
  ig_y mu v = mu * v * v /\
  ig_s mu l v = sqrt (4 * l * ig_y mu v + ig_y mu v * ig_y mu v) /\
  ig_x1 mu l v = mu + mu / (2 * l) * (ig_y mu v - ig_s mu l v) /\
  ig_x2 mu l v = mu * mu / ig_x1 mu l v /\
  ig_g mu l x = l * (x - mu) ^ 2 / (mu ^ 2 * x).
Proof. intros. repeat split. Qed.

(* s^2 = 4 l y + y^2 with y >= 0, hence y <= s < 2 l + y *)
Lemma ig_s_spec : forall mu l v, 0 < mu -> 0 < l ->
  let y := ig_y mu v in let s := ig_s mu l v in
  s * s = 4 * l * y + y * y /\ y <= s < 2 * l + y.
Proof.
  intros mu l v Hmu Hl y s.
  assert (Hy : 0 <= y) by (unfold y, ig_y; nra).
  assert (Hs : 0 <= s) by apply sqrt_pos.
  assert (E : s * s = 4 * l * y + y * y) by (apply sqrt_sqrt; nra).
  split; [exact E | split; nra].
Qed.

Theorem ig_x1_pos : forall mu l v, 0 < mu -> 0 < l -> 0 < ig_x1 mu l v <= mu.
Proof.
  intros mu l v Hmu Hl. destruct (ig_s_spec mu l v Hmu Hl) as [_ [B1 B2]]. unfold ig_x1.
  assert (Hk : 0 < mu / (2 * l)) by (apply Rdiv_lt_0_compat; lra).
  split; [| nra].
  replace (mu + mu / (2 * l) * (ig_y mu v - ig_s mu l v))
    with (mu / (2 * l) * (2 * l + ig_y mu v - ig_s mu l v)) by (field; lra).
  apply Rmult_lt_0_compat; lra.
Qed.

Theorem ig_roots_product : forall mu l v, 0 < mu -> 0 < l ->
  ig_x1 mu l v * ig_x2 mu l v = mu ^ 2.
Proof.
  intros mu l v Hmu Hl. pose proof (ig_x1_pos mu l v Hmu Hl). unfold ig_x2. field. lra.
Qed.

(* for e^2 = 4 l y + y^2, the numbers x(e) = mu + mu/(2l) (y + e) and x(-e) are the two roots of
   l (x - mu)^2 = mu y x, of product mu^2 *)
Lemma ig_root_eqs : forall mu l y e, 0 < l -> e * e = 4 * l * y + y * y ->
  let x e := mu + mu / (2 * l) * (y + e) in
  l * (x e - mu) ^ 2 = mu * y * x e /\ x e * x (- e) = mu * mu.
Proof.
  intros mu l y e Hl He x. unfold x. split.
  - replace (l * (mu + mu / (2 * l) * (y + e) - mu) ^ 2)
      with (mu ^ 2 / (4 * l) * (y * y + 2 * y * e + e * e)) by (field; lra).
    rewrite He. field. lra.
  - replace ((mu + mu / (2 * l) * (y + e)) * (mu + mu / (2 * l) * (y + - e)))
      with (mu * mu + mu * mu / (4 * l * l) * (4 * l * y + y * y - e * e)) by (field; lra).
    rewrite He. field. lra.
Qed.

(* x2 is the other root  mu + mu/(2l) (y + sqrt(4 l y + y^2))  of the quadratic *)
Theorem ig_x2_closed : forall mu l v, 0 < mu -> 0 < l ->
  ig_x2 mu l v = mu + mu / (2 * l) * (ig_y mu v + ig_s mu l v).
Proof.
  intros mu l v Hmu Hl. destruct (ig_s_spec mu l v Hmu Hl) as [E _].
  destruct (ig_root_eqs mu l _ _ Hl E) as [_ P]. pose proof (ig_x1_pos mu l v Hmu Hl).
  unfold ig_x2. rewrite <- P. change (mu + mu / (2 * l) * (ig_y mu v + - ig_s mu l v)) with (ig_x1 mu l v).
  field. lra.
Qed.

Theorem ig_x2_ge : forall mu l v, 0 < mu -> 0 < l -> mu <= ig_x2 mu l v.
Proof.
  intros mu l v Hmu Hl. pose proof (ig_x1_pos mu l v Hmu Hl). apply Rle_div_iff; nra.
Qed.

Theorem ig_roots_solve : forall mu l v, 0 < mu -> 0 < l ->
  ig_g mu l (ig_x1 mu l v) = v ^ 2 /\ ig_g mu l (ig_x2 mu l v) = v ^ 2.
Proof.
  intros mu l v Hmu Hl. destruct (ig_s_spec mu l v Hmu Hl) as [E _].
  assert (S : forall x, 0 < x -> l * (x - mu) ^ 2 = mu * ig_y mu v * x -> ig_g mu l x = v ^ 2).
  { intros x Hx Q. unfold ig_g. rewrite Q. unfold ig_y. field. lra. }
  pose proof (ig_x1_pos mu l v Hmu Hl). pose proof (ig_x2_ge mu l v Hmu Hl).
  split; apply S; try lra.
  - apply (ig_root_eqs mu l _ (- ig_s mu l v) Hl). rewrite <- E. ring.
  - rewrite ig_x2_closed by assumption. apply (ig_root_eqs mu l _ _ Hl E).
Qed.

(* the probability with which the code returns the smaller root *)
Theorem ig_choice_prob_range : forall mu l v, 0 < mu -> 0 < l ->
  1 / 2 <= mu / (mu + ig_x1 mu l v) < 1.
Proof.
  intros mu l v Hmu Hl. pose proof (ig_x1_pos mu l v Hmu Hl).
  split; [apply Rle_div_iff | apply Rlt_div_iff]; lra.
Qed.

(* Why mu/(mu + x1): for a two-to-one transformation nu = g(X) the root x_i must be chosen with
   probability proportional to w_i = f(x_i)/|g'(x_i)| (Michael, Schucany, Haas 1976), f the target
   density.  With f the IG(mu,l) density and x2 = mu^2/x1 this ratio is exactly mu/(mu + x1).       *)
Definition ig_pdf (mu l x : R) : R :=
  sqrt (l / (2 * PI * x ^ 3)) * exp (- (l * (x - mu) ^ 2 / (2 * mu ^ 2 * x))).
Definition ig_g' (mu l x : R) : R := l * (x ^ 2 - mu ^ 2) / (mu ^ 2 * x ^ 2).

Lemma ig_pdf_defs : forall mu l x,
  ig_pdf mu l x = sqrt (l / (2 * PI * x ^ 3)) * exp (- (l * (x - mu) ^ 2 / (2 * mu ^ 2 * x))) /\
  ig_g' mu l x = l * (x ^ 2 - mu ^ 2) / (mu ^ 2 * x ^ 2).
Proof. intros. repeat split. Qed.

Lemma ig_pdf_pos : forall mu l x, 0 < l -> 0 < x -> 0 < ig_pdf mu l x.
Proof.
  intros mu l x Hl Hx. pose proof PI_RGT_0. assert (0 < x ^ 3) by (apply pow_lt, Hx).
  apply Rmult_lt_0_compat; [apply sqrt_lt_R0, Rdiv_lt_0_compat; nra | apply exp_pos].
Qed.

Lemma ig_g'_neg : forall mu l x, 0 < mu -> 0 < l -> 0 < x < mu -> ig_g' mu l x < 0.
Proof.
  intros mu l x Hmu Hl Hx. unfold ig_g'.
  replace (l * (x ^ 2 - mu ^ 2)) with (- (l * (mu ^ 2 - x ^ 2))) by ring. rewrite Ropp_div.
  apply Ropp_lt_gt_0_contravar, Rdiv_lt_0_compat; [| apply Rmult_lt_0_compat; apply pow_lt; lra].
  apply Rmult_lt_0_compat; nra.
Qed.

(* under x |-> mu^2/x the exponent of the density is unchanged and the factor under the square root is
   multiplied by (x/mu)^6; g' changes sign and is multiplied by (x/mu)^2 *)
Lemma ig_pdf_reflect : forall mu l x, 0 < mu -> 0 < l -> 0 < x ->
  ig_pdf mu l (mu * mu / x) = ig_pdf mu l x * (x / mu) ^ 3.
Proof.
  intros mu l x Hmu Hl Hx. pose proof PI_RGT_0. assert (0 < x ^ 3) by (apply pow_lt, Hx).
  unfold ig_pdf.
  replace (l / (2 * PI * (mu * mu / x) ^ 3))
    with (l / (2 * PI * x ^ 3) * ((x / mu) ^ 3 * (x / mu) ^ 3)) by (field; lra).
  replace (l * (mu * mu / x - mu) ^ 2 / (2 * mu ^ 2 * (mu * mu / x)))
    with (l * (x - mu) ^ 2 / (2 * mu ^ 2 * x)) by (field; lra).
  rewrite sqrt_mult_alt, sqrt_square; [ring | | ].
  - apply pow_le, Rlt_le, Rdiv_lt_0_compat; lra.
  - apply Rlt_le, Rdiv_lt_0_compat; nra.
Qed.

Lemma ig_g'_reflect : forall mu l x, 0 < mu -> 0 < x ->
  ig_g' mu l (mu * mu / x) = - ig_g' mu l x * (x / mu) ^ 2.
Proof. intros mu l x Hmu Hx. unfold ig_g'. field. nra. Qed.

Theorem ig_choice_prob : forall mu l x1, 0 < mu -> 0 < l -> 0 < x1 < mu ->
  let x2 := mu * mu / x1 in
  let w1 := ig_pdf mu l x1 / Rabs (ig_g' mu l x1) in
  let w2 := ig_pdf mu l x2 / Rabs (ig_g' mu l x2) in
  w1 / (w1 + w2) = mu / (mu + x1).
Proof.
  intros mu l x1 Hmu Hl Hx1 x2 w1 w2.
  pose proof (ig_pdf_pos mu l x1 Hl (proj1 Hx1)) as Hp.
  pose proof (ig_g'_neg mu l x1 Hmu Hl Hx1) as Hg. pose proof (Rabs_left _ Hg) as Eg.
  assert (Ew : w2 = w1 * (x1 / mu)).
  { unfold w1, w2, x2. rewrite ig_pdf_reflect, ig_g'_reflect, Rabs_mult, Rabs_Ropp, Eg by lra.
    rewrite Rabs_pos_eq by apply pow2_ge_0. field. lra. }
  assert (Hw : 0 < w1) by (unfold w1; rewrite Eg; apply Rdiv_lt_0_compat; lra).
  rewrite Ew. field. nra.
Qed.

Definition skew_normalized (a z1 z2 : R) : R :=
  ((1 + a) * Rmax z1 z2 + (1 - a) * Rmin z1 z2) / (sqrt (1 + a * a) * sqrt 2).

Lemma skew_def : forall a z1 z2,
  skew_normalized a z1 z2
  = ((1 + a) * Rmax z1 z2 + (1 - a) * Rmin z1 z2) / (sqrt (1 + a * a) * sqrt 2).
Proof. reflexivity. Qed.

Lemma sqrt2_pos : 0 < sqrt 2.
Proof. apply sqrt_lt_R0. lra. Qed.

Lemma Rmax_plus_Rmin : forall a b, Rmax a b + Rmin a b = a + b.
Proof. intros a b. unfold Rmax, Rmin. destruct (Rle_dec a b); ring. Qed.

Lemma Rmax_minus_Rmin : forall a b, Rmax a b - Rmin a b = Rabs (a - b).
Proof. intros a b. unfold Rmax, Rmin, Rabs. destruct (Rle_dec a b), (Rcase_abs (a - b)); lra. Qed.

(* S = (z1+z2)/sqrt 2 and D = (z1-z2)/sqrt 2 are the rotation by 45 degrees of (z1,z2) *)
Theorem skew_repr : forall a z1 z2,
  skew_normalized a z1 z2
  = ((z1 + z2) / sqrt 2 + a * Rabs ((z1 - z2) / sqrt 2)) / sqrt (1 + a * a).
Proof.
  intros a z1 z2. pose proof sqrt2_pos as H2.
  assert (Ha : 0 < sqrt (1 + a * a)) by (apply sqrt_lt_R0; nra).
  unfold skew_normalized, Rdiv. rewrite Rabs_mult, (Rabs_pos_eq (/ _)) by (apply Rlt_le, Rinv_0_lt_compat, H2).
  rewrite <- Rmax_minus_Rmin, <- (Rmax_plus_Rmin z1 z2). field. lra.
Qed.

Theorem skew_rotation_isometry : forall z1 z2,
  ((z1 + z2) / sqrt 2) ^ 2 + ((z1 - z2) / sqrt 2) ^ 2 = z1 ^ 2 + z2 ^ 2.
Proof.
  intros z1 z2. pose proof sqrt2_pos as H2.
  replace (((z1 + z2) / sqrt 2) ^ 2 + ((z1 - z2) / sqrt 2) ^ 2)
    with ((2 * z1 ^ 2 + 2 * z2 ^ 2) / (sqrt 2 * sqrt 2)) by (field; lra).
  rewrite sqrt_sqrt by lra. field.
Qed.

Theorem skew_shape_one : forall z1 z2, skew_normalized 1 z1 z2 = Rmax z1 z2.
Proof.
  intros z1 z2. unfold skew_normalized. replace (1 + 1 * 1) with 2 by ring.
  rewrite sqrt_sqrt by lra. field.
Qed.

Theorem skew_shape_minus_one : forall z1 z2, skew_normalized (-1) z1 z2 = Rmin z1 z2.
Proof.
  intros z1 z2. unfold skew_normalized. replace (1 + -1 * -1) with 2 by ring.
  rewrite sqrt_sqrt by lra. field.
Qed.

Theorem skew_max_min_repr : forall z1 z2,
  ((z1 + z2) / sqrt 2 + Rabs ((z1 - z2) / sqrt 2)) / sqrt 2 = Rmax z1 z2 /\
  ((z1 + z2) / sqrt 2 - Rabs ((z1 - z2) / sqrt 2)) / sqrt 2 = Rmin z1 z2.
Proof.
  intros z1 z2. rewrite <- skew_shape_one, <- skew_shape_minus_one, !skew_repr.
  replace (1 + 1 * 1) with 2 by ring. replace (1 + -1 * -1) with 2 by ring.
  split; f_equal; ring.
Qed.

(* shape 0: the general formula gives S = (z1+z2)/sqrt 2 (standard normal by rotation); the code
   short-cuts to z1 — another standard normal — without drawing z2 *)
Theorem skew_shape_zero : forall z1 z2, skew_normalized 0 z1 z2 = (z1 + z2) / sqrt 2.
Proof.
  intros z1 z2. rewrite skew_repr. replace (1 + 0 * 0) with 1 by ring. rewrite sqrt_1. field.
  apply Rgt_not_eq, sqrt2_pos.
Qed.

(* chi_squared.rs, k = 1: returns z*z.  {z^2 <= x} = {-sqrt x <= z <= sqrt x}, so the CDF is
   Phi(sqrt x) - Phi(-sqrt x), the chi-square(1) CDF *)
Theorem chi1_square : forall z x, 0 <= x -> (z * z <= x <-> - sqrt x <= z <= sqrt x).
Proof.
  intros z x Hx. pose proof (sqrt_pos x) as Hs. pose proof (sqrt_sqrt x Hx) as Hss.
  split; intros H; [split |]; nra.
Qed.

(* student_t.rs: norm * sqrt (dof / chi) = norm / sqrt (chi / dof) *)
Theorem student_t_form : forall dof chi z, 0 < dof -> 0 < chi ->
  z * sqrt (dof / chi) = z / sqrt (chi / dof).
Proof.
  intros dof chi z Hd Hc. replace (dof / chi) with (/ (chi / dof)) by (field; lra).
  rewrite sqrt_inv. reflexivity.
Qed.

(* fisher_f.rs: numer / denom * (n / m) = (numer / m) / (denom / n) *)
Theorem fisher_f_form : forall m n x y, 0 < m -> 0 < n -> 0 < y ->
  x / y * (n / m) = (x / m) / (y / n).
Proof. intros m n x y Hm Hn Hy. field. lra. Qed.

(* pert.rs *)
Definition pert_v (mn mx mode shape : R) : R := 1 + shape * (mode - mn) / (mx - mn).
Definition pert_w (mn mx mode shape : R) : R := 1 + shape * (mx - mode) / (mx - mn).

Lemma pert_defs : forall mn mx mode shape,
  pert_v mn mx mode shape = 1 + shape * (mode - mn) / (mx - mn) /\
  pert_w mn mx mode shape = 1 + shape * (mx - mode) / (mx - mn).
Proof. intros. repeat split. Qed.

Theorem pert_affine_beta : forall mn mx mode shape, mn < mx -> mn <= mode <= mx -> 0 <= shape ->
  let v := pert_v mn mx mode shape in let w := pert_w mn mx mode shape in
  1 <= v /\ 1 <= w /\ v + w = 2 + shape /\
  (forall B, 0 <= B <= 1 -> mn <= B * (mx - mn) + mn <= mx) /\
  (* the mean of min + range * Beta(v,w) is the PERT mean *)
  mn + (mx - mn) * (v / (v + w)) = (mn + shape * mode + mx) / (shape + 2).
Proof.
  intros mn mx mode shape Hr Hm Hs v w. unfold v, w, pert_v, pert_w.
  assert (P : forall p, 0 <= p -> 0 <= shape * p / (mx - mn))
    by (intros p Hp; apply Rle_div_iff; nra).
  pose proof (P (mode - mn) ltac:(lra)). pose proof (P (mx - mode) ltac:(lra)).
  assert (E : 1 + shape * (mode - mn) / (mx - mn) + (1 + shape * (mx - mode) / (mx - mn)) = 2 + shape)
    by (field; lra).
  repeat split; try lra; try nra. rewrite E. field. lra.
Qed.

(* PertBuilder::with_mean inverts the mean formula *)
Theorem pert_with_mean : forall mn mx mean shape, 0 < shape ->
  let mode := ((shape + 2) * mean - mn - mx) / shape in
  (mn + shape * mode + mx) / (shape + 2) = mean.
Proof. intros mn mx mean shape Hs mode. unfold mode. field. lra. Qed.

(* normal_inverse_gaussian.rs: beta * V + sqrt V * Z, conditionally on V > 0 a N(beta V, V) *)
Theorem nig_mixture_form : forall beta V z x, 0 < V ->
  (beta * V + sqrt V * z <= x <-> z <= (x - beta * V) / sqrt V).
Proof.
  intros beta V z x HV. rewrite Rle_div_iff by (apply sqrt_lt_R0, HV). split; lra.
Qed.

(* normal.rs: mean + std_dev * z *)
Theorem normal_affine_event : forall mu s z x,
  (0 < s -> (mu + s * z <= x <-> z <= (x - mu) / s)) /\
  (s < 0 -> (mu + s * z <= x <-> (x - mu) / s <= z)).
Proof.
  intros mu s z x. split; intros Hs.
  - rewrite Rle_div_iff by exact Hs. split; lra.
  - assert (E : (x - mu) / s * s = x - mu) by (field; lra). split; nra.
Qed.

(* negative std_dev: mu + s z = mu + |s| (-z), and -z is again standard normal *)
Theorem normal_negative_std : forall mu s z, s < 0 -> mu + s * z = mu + Rabs s * (- z).
Proof. intros mu s z Hs. rewrite Rabs_left by exact Hs. ring. Qed.

(* LogNormal: exp (mu + s z) *)
Theorem lognormal_exp : forall mu s z x, 0 < s -> 0 < x ->
  (exp (mu + s * z) <= x <-> z <= (ln x - mu) / s).
Proof.
  intros mu s z x Hs Hx. rewrite exp_le_ln by exact Hx. apply normal_affine_event, Hs.
Qed.
