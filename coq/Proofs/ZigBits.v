(* Proofs/ZigBits.v — integer part of the ziggurat identity (utils.rs:66-80).
   One 64-bit word `bits` yields the layer index  i = bits & 0xff  and the 52-bit mantissa
   k = bits >> 12.  Because the two bit fields [0,8) and [12,64) are disjoint, the pair (i, k)
   is uniform on [0,256) x [0,2^52) when bits is uniform on [0,2^64): every pair has exactly
   the 16 preimages  k*2^12 + j*2^8 + i  (j = the 4 unused bits 8..11).
   Only ZArith; axiom-free.                                                              *)
From Coq Require Import ZArith Lia.
Open Scope Z_scope.

Lemma zig_bits_ranges : forall w, 0 <= w < 2^64 ->
  0 <= w mod 256 < 256 /\ 0 <= w / 2^12 < 2^52.
Proof.
  intros w Hw. split; [apply Z.mod_pos_bound; lia|].
  split; [apply Z.div_pos|apply Z.div_lt_upper_bound]; lia.
Qed.

(* the fibre of (i,k) is exactly { k*2^12 + j*2^8 + i | 0 <= j < 16 }: j is the field of bits 8..11 *)
Lemma zig_bits_fibre : forall i k, 0 <= i < 256 -> 0 <= k < 2^52 ->
  forall w, 0 <= w < 2^64 ->
  (w mod 256 = i /\ w / 2^12 = k <->
   exists j, 0 <= j < 16 /\ w = k * 2^12 + j * 2^8 + i).
Proof.
  intros i k Hi Hk w Hw. split.
  - intros [Ei Ek]. exists ((w / 256) mod 16).
    pose proof (Z.div_mod w 256 ltac:(lia)) as D1.
    pose proof (Z.div_mod (w / 256) 16 ltac:(lia)) as D2.
    pose proof (Z.mod_pos_bound (w / 256) 16 ltac:(lia)) as B2.
    rewrite Z.div_div in D2 by lia. change (256 * 16) with (2^12) in D2. lia.
  - intros [j [Hj E]]. split; symmetry.
    + apply (Z.mod_unique _ _ (k * 16 + j)); lia.
    + apply (Z.div_unique _ _ _ (j * 256 + i)); lia.
Qed.

(* the statement asked for: ranges + exact fibre *)
Theorem zig_bits_independent : forall w, 0 <= w < 2^64 ->
  (0 <= w mod 256 < 256 /\ 0 <= w / 2^12 < 2^52) /\
  forall i k, 0 <= i < 256 -> 0 <= k < 2^52 ->
    (w mod 256 = i /\ w / 2^12 = k <->
     exists j, 0 <= j < 16 /\ w = k * 2^12 + j * 2^8 + i).
Proof.
  intros w Hw. split.
  - apply zig_bits_ranges; exact Hw.
  - intros i k Hi Hk. apply zig_bits_fibre; assumption.
Qed.

(* onto, with exactly 16 preimages: the map j |-> k*2^12 + j*2^8 + i is an injection of [0,16)
   into [0,2^64) whose image is the fibre of (i,k). *)
Theorem zig_bits_sixteen : forall i k, 0 <= i < 256 -> 0 <= k < 2^52 ->
  (forall j, 0 <= j < 16 ->
     let w := k * 2^12 + j * 2^8 + i in
     0 <= w < 2^64 /\ w mod 256 = i /\ w / 2^12 = k) /\
  (forall j j', 0 <= j < 16 -> 0 <= j' < 16 ->
     k * 2^12 + j * 2^8 + i = k * 2^12 + j' * 2^8 + i -> j = j') /\
  (forall w, 0 <= w < 2^64 -> w mod 256 = i -> w / 2^12 = k ->
     exists j, 0 <= j < 16 /\ w = k * 2^12 + j * 2^8 + i).
Proof.
  intros i k Hi Hk. split; [|split].
  - intros j Hj w.
    assert (R : 0 <= w < 2^64) by (unfold w; lia).
    split; [exact R|].
    apply (zig_bits_fibre i k Hi Hk w R). exists j. split; [exact Hj|reflexivity].
  - intros j j' _ _. lia.
  - intros w Hw Ei Ek. apply (zig_bits_fibre i k Hi Hk w Hw). split; assumption.
Qed.

(* the integer mantissas `um` of Model/Continuous.v (zig):
   symmetric  u = (k - 2^51) * 2^-51  in [-1,1);   one-sided  u = (2k+1) * 2^-53  in (0,1) *)
Theorem zig_u_range : forall k, 0 <= k < 2^52 ->
  (- 2^51 <= k - 2^51 < 2^51) /\ (0 < 2 * k + 1 < 2^53).
Proof. lia. Qed.

(* every admissible mantissa is hit: the maps k |-> k - 2^51 and k |-> 2k+1 are injective, so u is
   uniform on the 2^52 grid points  { m * 2^-51 | -2^51 <= m < 2^51 }  resp. the odd multiples of
   2^-53 in (0,1). *)
Theorem zig_u_grid : forall k k', (k - 2^51 = k' - 2^51 -> k = k') /\ (2 * k + 1 = 2 * k' + 1 -> k = k').
Proof. lia. Qed.
