(* Proofs/GuardProofs3.v — C04, part 3: constructors whose validation depends on rounded
   arithmetic on the arguments: NormalInverseGaussian (division, product, difference, square
   root, product, division; `unreachable!()` proved unreachable) and Pert (range, v, w and the
   nested Beta::new).                                                                           *)
From Coq Require Import ZArith List Bool String Reals Lra Lia.
From Flocq Require Import Core.Core IEEE754.Binary IEEE754.Bits IEEE754.BinarySingleNaN.
From RD Require Import Model.Guards Model.GuardSpec Proofs.GuardLemmas Proofs.AffineFl Proofs.GuardArith.
Import ListNotations.
Open Scope R_scope.

Section Fmt.
Variable prec emax : Z.
Context (Hp : Prec_gt_0 prec) (Hpe : Prec_lt_emax prec emax).
Notation float := (binary_float prec emax).
Notation one := (one prec emax Hp Hpe).
Notation zero := (zero prec emax).
Notation fmul := (fmul prec emax Hp Hpe).
Notation fdiv := (fdiv prec emax Hp Hpe).
Notation fadd := (fadd prec emax Hp Hpe).
Notation fsub := (fsub prec emax Hp Hpe).
Notation fsqrt := (fsqrt prec emax Hp Hpe).
Notation fabs := (fabs prec emax).
Notation fgt := (fgt prec emax).
Notation flt := (flt prec emax).
Notation M := (M emax).
Notation ext := (ext prec emax).
Notation rnd := (rnd prec emax).
Notation clamp := (clamp emax).

Lemma fgt_pinf_zero : fgt (B754_infinity false) zero = true.
Proof. reflexivity. Qed.

Notation NIG_mu := (NIG_mu prec emax Hp Hpe).

(* the nested InverseGaussian::new(mu, 1) can only fail with MeanNegativeOrNull:
   `unreachable!()` is unreachable *)
Lemma NIG_eq (alpha beta : float) :
  NormalInverseGaussian_new prec emax Hp Hpe alpha beta =
  chain [(negb (fgt alpha zero), "AlphaNegativeOrNull");
         (negb (flt (fabs beta) alpha), "AbsoluteBetaNotLessThanAlpha");
         (negb (fgt (NIG_mu alpha beta) zero), "AlphaInfinite")].
Proof.
  unfold NormalInverseGaussian_new, InverseGaussian_new. rewrite (fgt_one_zero prec emax Hp Hpe).
  destruct (fgt alpha zero); [|reflexivity]. destruct (flt (fabs beta) alpha); [|reflexivity].
  now destruct (fgt (NIG_mu alpha beta) zero).
Qed.

Theorem NormalInverseGaussian_new_no_panic (alpha beta : float) :
  NormalInverseGaussian_new prec emax Hp Hpe alpha beta <> GPanic.
Proof. rewrite NIG_eq. apply chain_no_panic. Qed.

Section NIG.
Hypothesis prec_ge_3 : (3 <= prec)%Z.

(* rounding to nearest loses at most a factor 2 above 2^-emax *)
Lemma rnd_ge_half (x : R) : / M <= x -> x / 2 <= rnd x.
Proof.
  intros L. assert (E : / M = bpow radix2 (- emax)) by (unfold GuardSpec.M; now rewrite bpow_opp).
  assert (Px : 0 < x). { apply Rlt_le_trans with (/ M); trivial. rewrite E. apply bpow_gt_0. }
  destruct (mag radix2 x) as (e, He). specialize (He (Rgt_not_eq _ _ Px)).
  rewrite Rabs_pos_eq in He by lra. destruct He as (He1 & He2).
  assert (Hle : (- emax < e)%Z).
  { apply (lt_bpow radix2). rewrite <- E. lra. }
  assert (R : rnd (bpow radix2 (e - 1)) = bpow radix2 (e - 1)).
  { apply (rnd_bpow prec emax Hp). lia. }
  apply Rle_trans with (bpow radix2 (e - 1)).
  - replace e with (e - 1 + 1)%Z in He2 by lia. rewrite bpow_plus in He2. simpl bpow at 2 in He2.
    change (IZR (Z.pow_pos 2 1)) with 2 in He2. lra.
  - rewrite <- R. now apply rnd_mono.
Qed.

Lemma rnd_inv_M_pos (x : R) : / M <= x -> 0 < rnd x.
Proof.
  intros L. pose proof (rnd_ge_half x L). pose proof (M_gt_1 prec emax Hp Hpe).
  assert (0 < / M) by (apply Rinv_0_lt_compat; lra). lra.
Qed.

(* 1/g > 0 for every finite g of positive sign: +inf for g = +0, and at least 1/M, which does not
   round to zero, otherwise *)
Lemma fdiv_one_pos (g : float) :
  is_finite g = true -> Bsign g = false -> fgt (fdiv one g) zero = true.
Proof.
  intros Fg Sg. pose proof (finite_bound _ _ g Fg) as Bg.
  pose proof (Bsign_false_ge0 _ _ g Fg Sg) as Pg.
  destruct (Req_dec (B2R g) 0) as [Zg|Zg].
  - rewrite (finite_zero_struct _ _ g Fg Zg), Sg.
    destruct (one_struct prec emax Hp Hpe) as (m1 & e1 & H1 & ->). reflexivity.
  - destruct (Bdiv_ext prec emax Hp Hpe one g (one_fin _ _ _ _) Fg Zg) as (Nm & Em).
    apply (fgt_zero_ext prec emax Hp Hpe); trivial. rewrite Em. apply (clamp_pos prec emax Hp Hpe).
    apply rnd_inv_M_pos. rewrite (one_B2R prec emax Hp Hpe). unfold Rdiv. rewrite Rmult_1_l.
    apply Rinv_le_contravar; lra.
Qed.

(* every intermediate result up to sqrt(1 - (beta/alpha)^2) is finite in [-1,1], so gamma is a
   finite float of positive sign (possibly +0) *)
Lemma NIG_mu_pos (alpha beta : float) :
  is_finite alpha = true -> is_finite beta = true -> Rabs (B2R beta) < B2R alpha ->
  fgt (NIG_mu alpha beta) zero = true.
Proof.
  intros Fa Fb L.
  pose proof (M_gt_1 prec emax Hp Hpe) as HM. pose proof (finite_bound _ _ alpha Fa) as Ba.
  assert (Pa : 0 < B2R alpha) by (pose proof (Rabs_pos (B2R beta)); lra).
  apply Rabs_def2 in L. pose proof (one_B2R prec emax Hp Hpe) as V1.
  unfold Guards.NIG_mu.
  set (r := fdiv beta alpha).
  destruct (fin_between prec emax Hp Hpe r _ (-1) 1 (Bdiv_ext prec emax Hp Hpe beta alpha Fb Fa (Rgt_not_eq _ _ Pa))
              (rnd_m1 prec emax Hp Hpe) (rnd_1 prec emax Hp Hpe)) as (Fr & _ & Br); [lra|lra| |].
  { assert (B2R beta = B2R beta / B2R alpha * B2R alpha) by (field; lra).
    split; apply Rmult_le_reg_r with (B2R alpha); trivial; lra. }
  set (rr := fmul r r).
  destruct (fin_unit prec emax Hp Hpe rr _ (Bmult_ext prec emax Hp Hpe r r Fr Fr)) as (Frr & Brr); [nra|].
  set (t := fsub one rr).
  destruct (fin_unit prec emax Hp Hpe t _ (Bminus_ext prec emax Hp Hpe one rr (one_fin _ _ _ _) Frr))
    as (Ft & Bt); [lra|].
  assert (St : Bsign t = false).
  { apply Bminus_nonneg_sign; trivial. apply one_fin. apply Bsign_Bone. lra. }
  set (sq := fsqrt t).
  destruct (Bsqrt_nonneg prec emax Hp Hpe t Ft St) as (Fs & Vs & Ss). fold sq in Fs, Vs, Ss.
  assert (Bs : 0 <= B2R sq <= 1).
  { rewrite Vs. split. apply rnd_nonneg; trivial. apply sqrt_pos. apply (rnd_le1 prec emax Hp Hpe).
    rewrite <- sqrt_1. apply sqrt_le_1_alt. lra. }
  set (g := fmul alpha sq).
  destruct (fin_between prec emax Hp Hpe g _ 0 (B2R alpha) (Bmult_ext prec emax Hp Hpe alpha sq Fa Fs)
              (rnd_zero _ _) (rnd_B2R _ _ alpha)) as (Fg & _); [lra|lra|nra|].
  apply fdiv_one_pos; trivial.
  destruct (Bmult_nan_sign prec emax Hp Hpe alpha sq Fa Fs) as (_ & S). fold g in S.
  now rewrite S, Ss, (B2R_pos_sign prec emax alpha Pa).
Qed.

(* alpha = +inf, beta finite: mu = +0 *)
Lemma NIG_mu_inf (beta : float) :
  is_finite beta = true -> fgt (NIG_mu (B754_infinity false) beta) zero = false.
Proof.
  intros Fb. unfold Guards.NIG_mu.
  assert (E1 : exists s, fdiv beta (B754_infinity false) = B754_zero s).
  { destruct beta; try discriminate; simpl; eauto. }
  destruct E1 as (s & ->).
  replace (fmul (B754_zero s) (B754_zero s)) with (B754_zero false : float)
    by (destruct s; reflexivity).
  assert (E2 : fsub one (B754_zero false) = one).
  { destruct (one_struct prec emax Hp Hpe) as (m1 & e1 & H1 & ->). reflexivity. }
  rewrite E2.
  destruct (Bsqrt_nonneg prec emax Hp Hpe one (one_fin _ _ _ _) (Bsign_Bone _ _ _ _)) as (Fs & Vs & Ss).
  rewrite (one_B2R prec emax Hp Hpe), sqrt_1, (rnd_1 prec emax Hp Hpe) in Vs.
  destruct (finite_pos_struct _ _ _ Fs) as (m & e & H & ->). lra.
  simpl.
  destruct (one_struct prec emax Hp Hpe) as (m1 & e1 & H1 & ->). reflexivity.
Qed.

Theorem NormalInverseGaussian_new_sound (alpha beta : float) :
  agrees (NormalInverseGaussian_new prec emax Hp Hpe alpha beta)
         (spec_NormalInverseGaussian_new prec emax alpha beta).
Proof.
  rewrite NIG_eq. unfold spec_NormalInverseGaussian_new.
  pose proof (not_v_lt _ _ (fabs beta) alpha) as T2. rewrite <- flt_lt in T2.
  replace (v_nan _ _ (fabs beta)) with (v_nan _ _ beta) in T2 by (symmetry; apply is_nan_Babs).
  rewrite not_fgt_zero, T2.
  destruct (le0_or_nan _ _ alpha) eqn:A; [apply agrees_err; reflexivity|].
  apply orb_false_elim in A as [_ Na]. rewrite Na, orb_false_r in *.
  destruct (v_le _ _ alpha (fabs beta)); [apply agrees_err; reflexivity|].
  destruct (v_nan _ _ beta) eqn:Nb; [apply agrees_err; reflexivity|].
  apply negb_false_iff in T2. cbn [orb].
  (* |beta| < alpha: beta is finite, and mu = 1/gamma is positive exactly when alpha is finite too *)
  assert (Fb : is_finite beta = true).
  { destruct beta as [|[|]| |]; try reflexivity; destruct alpha as [|[|]| |]; discriminate. }
  destruct (is_finite alpha) eqn:Fa.
  - rewrite NIG_mu_pos by (trivial; rewrite <- B2R_Babs; apply flt_finite; trivial; unfold Guards.fabs; now rewrite is_finite_Babs).
    apply agrees_ok. cbn. now destruct alpha.
  - destruct alpha as [|[|]| |]; try discriminate; try (destruct beta as [| | |]; discriminate).
    rewrite NIG_mu_inf by trivial. apply agrees_err. cbn. unfold v_fin. now rewrite Fb.
Qed.
End NIG.

Lemma finite_clamp_inv (r : float) (v : R) :
  is_finite r = true -> ext r = clamp v -> B2R r = v /\ Rabs v < M.
Proof.
  intros F E. pose proof (finite_bound _ _ r F) as B. rewrite ext_finite in E by trivial.
  destruct (clamp_spec prec emax Hp Hpe v) as [[]|[[]|[]]]; try lra.
  split. lra. apply Rabs_lt. lra.
Qed.

Lemma Bminus_finite_inv (x y : float) :
  is_finite (fsub x y) = true -> is_finite x = true /\ is_finite y = true.
Proof.
  destruct x as [|[|]| |]; destruct y as [|[|]| |]; simpl; try discriminate; auto.
Qed.

(* 1 + shape * (hi - lo) / range > 0 *)
Lemma Pert_term_pos (shape hi lo range : float) :
  is_finite shape = true -> 0 <= B2R shape ->
  is_finite hi = true -> is_finite lo = true -> B2R lo <= B2R hi ->
  is_finite range = true -> 0 < B2R range -> rnd (B2R hi - B2R lo) <= B2R range ->
  fgt (fadd one (fdiv (fmul shape (fsub hi lo)) range)) zero = true.
Proof.
  intros Fs Ps Fh Fl L Fr Pr B.
  pose proof (finite_bound _ _ range Fr) as Br.
  destruct (Bminus_ext prec emax Hp Hpe hi lo Fh Fl) as (Nd & Ed).
  assert (0 <= rnd (B2R hi - B2R lo)) by (apply rnd_nonneg; trivial; lra).
  destruct (ext_clamp_finite prec emax Hp Hpe _ _ Nd Ed) as (Fd & Vd). apply Rabs_lt; lra.
  apply (one_plus_nn prec emax Hp Hpe), nn_div_pos; trivial. apply nn_mul; trivial. rewrite Vd. nra.
Qed.

Notation Pert_v min max shape mode := (fadd one (fdiv (fmul shape (fsub mode min)) (fsub max min))).
Notation Pert_w min max shape mode := (fadd one (fdiv (fmul shape (fsub max mode)) (fsub max min))).

Lemma Pert_with_mode_eq (min max shape mode : float) :
  Pert_with_mode prec emax Hp Hpe min max shape mode =
  chain [(negb (fgt max min), "RangeTooSmall");
         (negb (fge prec emax mode min && fge prec emax max mode), "ModeRange");
         (negb (fge prec emax shape zero), "ShapeTooSmall");
         (negb (fgt (Pert_v min max shape mode) zero && fgt (Pert_w min max shape mode) zero), "RangeTooSmall")].
Proof.
  unfold Pert_with_mode, Beta_new, map_err.
  destruct (fgt max min); [|reflexivity]. destruct (_ && _); [|reflexivity].
  destruct (fge prec emax shape zero); [|reflexivity].
  destruct (fgt (Pert_v min max shape mode) zero); [|reflexivity].
  now destruct (fgt (Pert_w min max shape mode) zero).
Qed.

Theorem Pert_with_mode_no_panic (min max shape mode : float) :
  Pert_with_mode prec emax Hp Hpe min max shape mode <> GPanic.
Proof. rewrite Pert_with_mode_eq. apply chain_no_panic. Qed.

(* inside the documented domain, with a finite range and shape, Beta::new(v, w) succeeds *)
Lemma Pert_vw_pos (min max shape mode : float) :
  is_finite min = true -> is_finite max = true -> is_finite mode = true -> is_finite shape = true ->
  is_finite (fsub max min) = true ->
  B2R min < B2R max -> B2R min <= B2R mode <= B2R max -> 0 <= B2R shape ->
  fgt (Pert_v min max shape mode) zero && fgt (Pert_w min max shape mode) zero = true.
Proof.
  intros Fmin Fmax Fmode Fs Fr L (L1 & L2) Ps.
  destruct (Bminus_ext prec emax Hp Hpe max min Fmax Fmin) as (Nr & Er).
  destruct (finite_clamp_inv _ _ Fr Er) as (Vr & _).
  pose proof (rnd_minus_pos prec emax Hp max min L) as Pr. rewrite <- Vr in Pr.
  apply andb_true_intro; split; apply Pert_term_pos; trivial; rewrite Vr; apply rnd_mono; trivial; lra.
Qed.

Theorem Pert_with_mode_sound (min max shape mode : float) :
  agrees (Pert_with_mode prec emax Hp Hpe min max shape mode)
         (spec_Pert_with_mode prec emax Hp Hpe min max shape mode).
Proof.
  rewrite Pert_with_mode_eq. unfold spec_Pert_with_mode.
  pose proof (not_v_lt _ _ min max) as T1. rewrite v_le_lt_eq, <- fgt_lt in T1.
  pose proof (not_v_le _ _ min mode) as T2. pose proof (not_v_le _ _ mode max) as T2'.
  pose proof (not_v_le _ _ zero shape) as T3. rewrite <- fge_le in T2, T2', T3.
  (* the tests in the vocabulary of the specification; then one comparison after the other, the first
     that holds being a documented reason for the error returned *)
  rewrite negb_andb, T1, T2, T2', T3.
  destruct (v_lt _ _ max min); [apply agrees_err; reflexivity|].
  destruct (v_eq _ _ max min); [apply agrees_err; cbn; apply orb_true_r|].
  destruct (v_nan _ _ min) eqn:Nmin; [apply agrees_err; reflexivity|].
  destruct (v_nan _ _ max) eqn:Nmax; [apply agrees_err; reflexivity|].
  destruct (v_lt _ _ mode min); [apply agrees_err; reflexivity|].
  destruct (v_nan _ _ mode) eqn:Nmode; [apply agrees_err; cbn; now rewrite orb_true_r|].
  destruct (v_lt _ _ max mode); [apply agrees_err; reflexivity|].
  destruct (v_lt _ _ shape zero); [apply agrees_err; reflexivity|].
  destruct (v_nan _ _ shape) eqn:Ns; [apply agrees_err; reflexivity|].
  apply negb_false_iff in T1, T2, T2', T3. cbn [orb].
  destruct (fgt (Pert_v min max shape mode) zero && fgt (Pert_w min max shape mode) zero) eqn:Eb.
  - now apply agrees_ok.
  - (* Beta::new(v, w) fails although no documented condition holds: then the range is not finite or the
       shape is +inf, for otherwise v, w > 0 by Pert_vw_pos *)
    destruct (negb (v_fin prec emax (fsub max min)) || v_pinf prec emax shape) eqn:EU;
      [now apply agrees_unspec|exfalso].
    apply orb_false_elim in EU as [Fr EU]. apply negb_false_iff in Fr.
    destruct (Bminus_finite_inv _ _ Fr) as (Fmax & Fmin).
    assert (Fmode : is_finite mode = true).
    { destruct min as [| | |], max as [| | |]; try discriminate; destruct mode as [|[|]| |]; try discriminate; reflexivity. }
    assert (Fs : is_finite shape = true) by (destruct shape as [|[|]| |]; try discriminate; reflexivity).
    rewrite Pert_vw_pos in Eb; trivial; [discriminate| |split|].
    + now apply (fgt_finite _ _ max min).
    + now apply (fge_finite _ _ mode min).
    + now apply (fge_finite _ _ max mode).
    + now apply (fge_finite _ _ shape zero Fs eq_refl).
Qed.

Theorem Pert_with_mean_sound (min max shape mean : float) :
  agrees (Pert_with_mean prec emax Hp Hpe min max shape mean)
         (spec_Pert_with_mean prec emax Hp Hpe min max shape mean).
Proof.
  unfold Pert_with_mean, spec_Pert_with_mean.
  destruct (_ || _).
  - pose proof (Pert_with_mode_no_panic min max shape (Pert_implied_mode prec emax Hp Hpe min max shape mean)).
    destruct (Pert_with_mode _ _ _ _ _ _ _ _); simpl; tauto.
  - apply Pert_with_mode_sound.
Qed.

End Fmt.
