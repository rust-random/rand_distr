(* Proofs/MultiProofs.v — property C12 (unit geometry): the algebra behind UnitCircle / UnitSphere /
   UnitDisc / UnitBall on ideal reals, and its lift to the models of Model/Multi.v: every result the
   exact semantics `evals` can produce, whose components denote real numbers, lies on the unit
   circle / sphere (resp. in the closed disc / ball).  Also the small amount of infrastructure on
   expression values shared with Proofs/MultiDirichlet.v (C11).                                    *)
From Coq Require Import Reals List Lra Lia Bool.
From Interval Require Import Xreal.
From Flocq Require Import Core.
From RD Require Import Base.Expr Base.Run Model.Sampler Model.Multi.
From RD Require Import Proofs.RunSound Proofs.LawsInvCdf Proofs.Support.
Import ListNotations.
Open Scope Z_scope.
Open Scope sampler_scope.

Import ExprNotations.

Local Open Scope R_scope.

Lemma sqrt_real a x : evalX (esqrt a) = Xreal x ->
  exists xa, evalX a = Xreal xa /\ x = sqrt xa.
Proof. unfold esqrt. cbn [evalX xun]. destruct (evalX a) as [|xa]; cbn; try discriminate.
  intros H0. injection H0 as <-. exists xa. auto. Qed.
Lemma two_eval : evalX two = Xreal 2.
Proof. apply num_eval. Qed.

(* the draw of Uniform::new(-1, 1) *)
Definition u_pm1_R (t : fty) (w : Z) : R :=
  match t with
  | F64 => IZR (w / 2^12 - 2^51) * powerRZ 2 (-51)
  | F32 => IZR (hi32 w / 2^9 - 2^22) * powerRZ 2 (-22)
  end.
Lemma u_pm1_eval t w : evalX (u_pm1 t w) = Xreal (u_pm1_R t w).
Proof. destruct t; cbn [u_pm1 evalX u_pm1_R]; apply xdy_real. Qed.

Lemma powerRZ_2_neg n : (0 <= n)%Z -> powerRZ 2 (- n) = / IZR (2 ^ n).
Proof.
  intros H. rewrite powerRZ_neg'. f_equal. change (2 ^ n)%Z with (radix2 ^ n)%Z.
  rewrite IZR_Zpower, bpow_powerRZ by exact H. reflexivity.
Qed.

Lemma scaled_range (k n : Z) : (0 <= k < 2 * 2 ^ n)%Z -> (0 <= n)%Z ->
  -1 <= IZR (k - 2 ^ n) * powerRZ 2 (- n) < 1.
Proof.
  intros Hk Hn. rewrite powerRZ_2_neg, minus_IZR by exact Hn.
  assert (B : 0 < IZR (2 ^ n)) by (apply IZR_lt; lia).
  assert (K : 0 <= IZR k <= 2 * IZR (2 ^ n) - 1).
  { rewrite <- mult_IZR, <- minus_IZR. split; apply IZR_le; lia. }
  split; [apply Rmult_le_reg_r with (IZR (2 ^ n))|apply Rmult_lt_reg_r with (IZR (2 ^ n))];
    try exact B; rewrite Rmult_assoc, Rinv_l by lra; lra.
Qed.

Theorem u_pm1_range t w : (0 <= w < 2 ^ 64)%Z ->
  exists r, evalX (u_pm1 t w) = Xreal r /\ -1 <= r < 1.
Proof.
  intros Hw. exists (u_pm1_R t w). split; [apply u_pm1_eval|].
  destruct t; unfold u_pm1_R.
  - apply (scaled_range (hi32 w / 2 ^ 9) 22); [|lia]. unfold hi32. rewrite Z.div_div by lia.
    split; [apply Z.div_pos|apply Z.div_lt_upper_bound]; lia.
  - apply (scaled_range (w / 2 ^ 12) 51); [|lia].
    split; [apply Z.div_pos|apply Z.div_lt_upper_bound]; lia.
Qed.

Theorem circle_norm x1 x2 : x1 * x1 + x2 * x2 <> 0 ->
  let s := x1 * x1 + x2 * x2 in
  ((x1 * x1 - x2 * x2) / s) ^ 2 + (2 * x1 * x2 / s) ^ 2 = 1.
Proof. intros H s. unfold s. field. exact H. Qed.

Theorem sphere_norm x1 x2 : 0 <= x1 * x1 + x2 * x2 < 1 ->
  let s := x1 * x1 + x2 * x2 in
  let factor := 2 * sqrt (1 - s) in
  (x1 * factor) ^ 2 + (x2 * factor) ^ 2 + (1 - 2 * s) ^ 2 = 1.
Proof.
  intros H s factor.
  assert (Q : sqrt (1 - s) * sqrt (1 - s) = 1 - s) by (apply sqrt_sqrt; unfold s; lra).
  replace ((x1 * factor) ^ 2 + (x2 * factor) ^ 2) with (4 * s * (sqrt (1 - s) * sqrt (1 - s)))
    by (unfold factor, s; ring).
  rewrite Q. ring.
Qed.

(* the third coordinate of UnitSphere is the affine function 1 - 2 s of s = x1^2 + x2^2 (which is what makes
   it uniform on [-1,1] when s is uniform on [0,1)): it ranges over (-1, 1] *)
Theorem sphere_z_linear x1 x2 : 0 <= x1 * x1 + x2 * x2 < 1 ->
  let s := x1 * x1 + x2 * x2 in
  nth 2 [x1 * (2 * sqrt (1 - s)); x2 * (2 * sqrt (1 - s)); 1 - 2 * s] 0 = 1 - 2 * s /\ -1 < 1 - 2 * s <= 1.
Proof. intros H s. split; [reflexivity|unfold s; lra]. Qed.

Theorem disc_ball_norm :
  (forall x1 x2, rcmp CLe (x1 * x1 + x2 * x2) 1 = true -> x1 ^ 2 + x2 ^ 2 <= 1) /\
  (forall x1 x2 x3, rcmp CLe (x1 * x1 + x2 * x2 + x3 * x3) 1 = true -> x1 ^ 2 + x2 ^ 2 + x3 ^ 2 <= 1).
Proof. split; intros * H; apply rcmp_true in H; lra. Qed.

(* von Neumann's trick: a point of the disc at angle theta is mapped to the point of the circle at angle 2 theta *)
Theorem circle_angle_doubling r theta : 0 < r ->
  let x1 := r * cos theta in let x2 := r * sin theta in
  let s := x1 * x1 + x2 * x2 in
  (x1 * x1 - x2 * x2) / s = cos (2 * theta) /\ 2 * x1 * x2 / s = sin (2 * theta).
Proof.
  intros Hr x1 x2 s.
  assert (S : s = r * r).
  { unfold s, x1, x2. rewrite <- (Rmult_1_r (r * r)), <- (sin2_cos2 theta). unfold Rsqr. ring. }
  assert (N : r * r <> 0) by nra.
  rewrite S, cos_2a, sin_2a. unfold x1, x2. split; field; lra.
Qed.

Arguments u_pm1 : simpl never.

Definition vals (es : list expr) (rs : list R) : Prop := Forall2 (fun e r => evalX e = Xreal r) es rs.

Definition on_circle (p : list expr * list Z) : Prop :=
  exists e1 e2, fst p = [e1; e2] /\ forall a b, evalX e1 = Xreal a -> evalX e2 = Xreal b -> a ^ 2 + b ^ 2 = 1.
Definition on_sphere (p : list expr * list Z) : Prop :=
  exists e1 e2 e3, fst p = [e1; e2; e3] /\
    forall a b c, evalX e1 = Xreal a -> evalX e2 = Xreal b -> evalX e3 = Xreal c -> a ^ 2 + b ^ 2 + c ^ 2 = 1.
Definition in_disc (p : list expr * list Z) : Prop :=
  exists e1 e2, fst p = [e1; e2] /\ forall a b, evalX e1 = Xreal a -> evalX e2 = Xreal b -> a ^ 2 + b ^ 2 <= 1.
Definition in_ball (p : list expr * list Z) : Prop :=
  exists e1 e2 e3, fst p = [e1; e2; e3] /\
    forall a b c, evalX e1 = Xreal a -> evalX e2 = Xreal b -> evalX e3 = Xreal c -> a ^ 2 + b ^ 2 + c ^ 2 <= 1.
(* accepted candidates of UnitCircle have 0 < x1^2 + x2^2 < 1: both output components denote real numbers (no 0/0) *)
Definition on_circle_real (p : list expr * list Z) : Prop :=
  exists e1 e2 a b, fst p = [e1; e2] /\ evalX e1 = Xreal a /\ evalX e2 = Xreal b /\ a ^ 2 + b ^ 2 = 1.

Lemma sq_sum_eval x1 x2 r1 r2 : evalX x1 = Xreal r1 -> evalX x2 = Xreal r2 ->
  evalX (x1 *. x1 +. x2 *. x2) = Xreal (r1 * r1 + r2 * r2).
Proof. intros H1 H2. cbn [evalX xbin]. rewrite H1, H2. reflexivity. Qed.

Lemma circle_out_on x1 x2 r1 r2 ws : evalX x1 = Xreal r1 -> evalX x2 = Xreal r2 ->
  on_circle (circle_out x1 x2, ws).
Proof.
  intros H1 H2. unfold circle_out. do 2 eexists. split; [reflexivity|]. intros a b Ha Hb.
  apply div_real in Ha. destruct Ha as (n1 & d1 & En1 & Ed1 & Nz & ->).
  apply div_real in Hb. destruct Hb as (n2 & d2 & En2 & Ed2 & _ & ->).
  rewrite (sq_sum_eval _ _ _ _ H1 H2) in Ed1, Ed2. injection Ed1 as <-. injection Ed2 as <-.
  cbn [evalX xbin] in En1, En2. rewrite H1, H2 in En1, En2. rewrite two_eval in En2.
  injection En1 as <-. injection En2 as <-.
  apply circle_norm. exact Nz.
Qed.

Lemma circle_out_real x1 x2 r1 r2 ws : evalX x1 = Xreal r1 -> evalX x2 = Xreal r2 ->
  r1 * r1 + r2 * r2 <> 0 -> on_circle_real (circle_out x1 x2, ws).
Proof.
  intros H1 H2 Nz. unfold circle_out. do 2 eexists.
  exists ((r1 * r1 - r2 * r2) / (r1 * r1 + r2 * r2)), (2 * r1 * r2 / (r1 * r1 + r2 * r2)).
  split; [reflexivity|]. cbn [evalX xbin]. rewrite H1, H2, two_eval.
  split; [|split]; [exact (Xdiv_nz _ _ Nz)..|apply circle_norm, Nz].
Qed.

Lemma sphere_out_on x1 x2 r1 r2 ws : evalX x1 = Xreal r1 -> evalX x2 = Xreal r2 ->
  r1 * r1 + r2 * r2 < 1 -> on_sphere (sphere_out x1 x2, ws).
Proof.
  intros H1 H2 Hs. unfold sphere_out, esqrt. do 3 eexists. split; [reflexivity|].
  cbn [evalX xbin xun]. rewrite H1, H2, one_eval, two_eval. cbn.
  intros a b c Ha Hb Hc. injection Ha as <-. injection Hb as <-. injection Hc as <-.
  apply sphere_norm. nra.
Qed.

(* one iteration of a loop on a list of words that is long enough *)
Ltac mstep := cbn [unit_circle_loop unit_disc_loop unit_sphere_loop unit_ball_loop draw_pm1
                   sbind bind next_word sret sask allsem fst].

Lemma circle_loop_sem fuel t : forall ws, allsem on_circle_real (unit_circle_loop fuel t ws).
Proof.
  induction fuel as [|f IH]; intros ws; [exact I|].
  destruct ws as [|w1 [|w2 ws]]; try exact I.
  mstep. intros s o _ _. destruct (rcmp CLt s o); mstep; [|apply IH].
  intros x y Hx Hy. destruct (rcmp CGt x y) eqn:C; mstep; [|apply IH].
  rewrite (sq_sum_eval _ _ _ _ (u_pm1_eval t w1) (u_pm1_eval t w2)) in Hx. rewrite num_eval in Hy.
  injection Hx as <-. injection Hy as <-. apply rcmp_true in C.
  eapply circle_out_real; try apply u_pm1_eval. lra.
Qed.

Lemma disc_loop_sem fuel t : forall ws, allsem in_disc (unit_disc_loop fuel t ws).
Proof.
  induction fuel as [|f IH]; intros ws; [exact I|].
  destruct ws as [|w1 [|w2 ws]]; try exact I.
  mstep. intros x y Hx Hy. destruct (rcmp CLe x y) eqn:C; mstep; [|apply IH].
  do 2 eexists. split; [reflexivity|]. intros a b Ha Hb.
  rewrite (sq_sum_eval _ _ _ _ Ha Hb) in Hx. rewrite one_eval in Hy. injection Hx as <-. injection Hy as <-.
  apply (proj1 disc_ball_norm), C.
Qed.

Lemma sphere_loop_sem fuel t : forall ws, allsem on_sphere (unit_sphere_loop fuel t ws).
Proof.
  induction fuel as [|f IH]; intros ws; [exact I|].
  destruct ws as [|w1 [|w2 ws]]; try exact I.
  mstep. intros x y Hx Hy. destruct (rcmp CGe x y) eqn:C; mstep; [apply IH|].
  rewrite (sq_sum_eval _ _ _ _ (u_pm1_eval t w1) (u_pm1_eval t w2)) in Hx. rewrite one_eval in Hy.
  injection Hx as <-. injection Hy as <-. apply not_true_iff_false in C. rewrite rcmp_true in C.
  eapply sphere_out_on; try apply u_pm1_eval. lra.
Qed.

Lemma ball_loop_sem fuel t : forall ws, allsem in_ball (unit_ball_loop fuel t ws).
Proof.
  induction fuel as [|f IH]; intros ws; [exact I|].
  destruct ws as [|w1 [|w2 [|w3 ws]]]; try exact I.
  mstep. intros x y Hx Hy. destruct (rcmp CLe x y) eqn:C; mstep; [|apply IH].
  do 3 eexists. split; [reflexivity|]. intros a b c Ha Hb Hc.
  cbn [evalX xbin] in Hx. rewrite Ha, Hb, Hc in Hx. rewrite one_eval in Hy. injection Hx as <-. injection Hy as <-.
  apply (proj2 disc_ball_norm), C.
Qed.

(* since the origin is rejected (fix 4622ae6 in the crate), EVERY result of UnitCircle consists of two real numbers on the circle:
   the hypothesis "the components denote real numbers" of unit_circle_norm is always met — no NaN *)
Theorem unit_circle_real t ws out rest : evals (unit_circle t ws) (out, rest) ->
  exists e1 e2 a b, out = [e1; e2] /\ evalX e1 = Xreal a /\ evalX e2 = Xreal b /\ a ^ 2 + b ^ 2 = 1.
Proof. exact (allsem_elim on_circle_real _ (out, rest) (circle_loop_sem 64 t ws)). Qed.

Theorem unit_circle_on_circle t ws out rest : evals (unit_circle t ws) (out, rest) ->
  exists e1 e2, out = [e1; e2] /\ forall a b, evalX e1 = Xreal a -> evalX e2 = Xreal b -> a ^ 2 + b ^ 2 = 1.
Proof.
  intros E. destruct (unit_circle_real _ _ _ _ E) as (e1 & e2 & a & b & -> & Ha & Hb & N).
  exists e1, e2. split; [reflexivity|]. intros a' b' Ha' Hb'. rewrite Ha in Ha'. rewrite Hb in Hb'.
  injection Ha' as <-. injection Hb' as <-. exact N.
Qed.

Theorem unit_sphere_on_sphere t ws out rest : evals (unit_sphere t ws) (out, rest) ->
  exists e1 e2 e3, out = [e1; e2; e3] /\
    forall a b c, evalX e1 = Xreal a -> evalX e2 = Xreal b -> evalX e3 = Xreal c -> a ^ 2 + b ^ 2 + c ^ 2 = 1.
Proof. exact (allsem_elim on_sphere _ (out, rest) (sphere_loop_sem 64 t ws)). Qed.

Theorem unit_disc_in_disc t ws out rest : evals (unit_disc t ws) (out, rest) ->
  exists e1 e2, out = [e1; e2] /\ forall a b, evalX e1 = Xreal a -> evalX e2 = Xreal b -> a ^ 2 + b ^ 2 <= 1.
Proof. exact (allsem_elim in_disc _ (out, rest) (disc_loop_sem 64 t ws)). Qed.

Theorem unit_ball_in_ball t ws out rest : evals (unit_ball t ws) (out, rest) ->
  exists e1 e2 e3, out = [e1; e2; e3] /\
    forall a b c, evalX e1 = Xreal a -> evalX e2 = Xreal b -> evalX e3 = Xreal c -> a ^ 2 + b ^ 2 + c ^ 2 <= 1.
Proof. exact (allsem_elim in_ball _ (out, rest) (ball_loop_sem 64 t ws)). Qed.

(* the form asked for: results given as explicit lists *)
Corollary unit_circle_norm t ws e1 e2 rest a b :
  evals (unit_circle t ws) ([e1; e2], rest) -> evalX e1 = Xreal a -> evalX e2 = Xreal b -> a ^ 2 + b ^ 2 = 1.
Proof.
  intros E Ha Hb. destruct (unit_circle_on_circle _ _ _ _ E) as (f1 & f2 & Eq & H).
  injection Eq as -> ->. auto.
Qed.
Corollary unit_sphere_norm t ws e1 e2 e3 rest a b c :
  evals (unit_sphere t ws) ([e1; e2; e3], rest) ->
  evalX e1 = Xreal a -> evalX e2 = Xreal b -> evalX e3 = Xreal c -> a ^ 2 + b ^ 2 + c ^ 2 = 1.
Proof.
  intros E Ha Hb Hc. destruct (unit_sphere_on_sphere _ _ _ _ E) as (f1 & f2 & f3 & Eq & H).
  injection Eq as -> -> ->. auto.
Qed.
Corollary unit_disc_norm t ws e1 e2 rest a b :
  evals (unit_disc t ws) ([e1; e2], rest) -> evalX e1 = Xreal a -> evalX e2 = Xreal b -> a ^ 2 + b ^ 2 <= 1.
Proof.
  intros E Ha Hb. destruct (unit_disc_in_disc _ _ _ _ E) as (f1 & f2 & Eq & H).
  injection Eq as -> ->. auto.
Qed.
Corollary unit_ball_norm t ws e1 e2 e3 rest a b c :
  evals (unit_ball t ws) ([e1; e2; e3], rest) ->
  evalX e1 = Xreal a -> evalX e2 = Xreal b -> evalX e3 = Xreal c -> a ^ 2 + b ^ 2 + c ^ 2 <= 1.
Proof.
  intros E Ha Hb Hc. destruct (unit_ball_in_ball _ _ _ _ E) as (f1 & f2 & f3 & Eq & H).
  injection Eq as -> -> ->. auto.
Qed.

(* the candidate (0,0) (both words with top bits 1000..0) is rejected: the sampler goes on to the next two words *)
Lemma circle_loop_origin f t ws out :
  evals (unit_circle_loop (S f) t (2 ^ 63 :: 2 ^ 63 :: ws)%Z) out <-> evals (unit_circle_loop f t ws) out.
Proof.
  assert (E0 : evalX (u_pm1 t (2 ^ 63)) = Xreal 0).
  { rewrite u_pm1_eval. f_equal. destruct t; unfold u_pm1_R, hi32.
    - change (2 ^ 63 / 2 ^ 32 / 2 ^ 9 - 2 ^ 22)%Z with 0%Z. apply Rmult_0_l.
    - change (2 ^ 63 / 2 ^ 12 - 2 ^ 51)%Z with 0%Z. apply Rmult_0_l. }
  pose proof (sq_sum_eval _ _ _ _ E0 E0) as ES.
  assert (C1 : rcmp CLt (0 * 0 + 0 * 0) 1 = true) by (apply rcmp_true; lra).
  assert (C2 : rcmp CGt (0 * 0 + 0 * 0) 0 = false) by (apply not_true_iff_false; rewrite rcmp_true; lra).
  cbn [unit_circle_loop sbind draw_pm1 next_word sret sask bind].
  rewrite (evals_Ask_iff _ _ _ _ _ _ _ ES one_eval), C1. cbn [sbind sask sret bind].
  rewrite (evals_Ask_iff _ _ _ _ _ _ _ ES (num_eval 0)), C2. reflexivity.
Qed.
Theorem circle_origin_rejected t ws out :
  evals (unit_circle t (2 ^ 63 :: 2 ^ 63 :: ws)%Z) out <-> evals (unit_circle_loop 63 t ws) out.
Proof. exact (circle_loop_origin 63 t ws out). Qed.
