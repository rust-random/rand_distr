(* Proofs/AliasSample.v — consequences of the specification of a constructed table: weights()
   round trip, exact sampling counts; Lemire range; the statements about alias_new *)
From Coq Require Import ZArith List Lia.
From RD Require Import Model.Tree Model.Uniform Model.Alias Proofs.UniformDraw Proofs.AliasBasics Proofs.AliasLoop.
Open Scope Z_scope.

Definition wstep (ty : aty) (t : atab) (n : nat) (acc : option (list Z)) (j : nat) : option (list Z) :=
  match acc with
  | None => None
  | Some c =>
    if geti (t_odds t) j <? t_sum t then
      let a := Z.to_nat (geti (t_al t) j) in
      if (a <? n)%nat then
        let v := geti c a + (t_sum t - geti (t_odds t) j) in
        if inra ty v then Some (seti c a v) else None
      else None
    else Some c
  end.

Lemma alias_weights_unfold : forall ty t, alias_weights ty t =
  match fold_left (wstep ty t (length (t_al t))) (seq 0 (length (t_al t)))
                  (Some (map (fun _ : Z => 0) (t_al t))) with
  | None => None
  | Some c =>
    if forallb (fun j => inra ty (geti (t_odds t) j + geti c j)) (seq 0 (length (t_al t)))
    then Some (map (fun j => (geti (t_odds t) j + geti c j) / Z.of_nat (length (t_al t)))
                   (seq 0 (length (t_al t))))
    else None
  end.
Proof. reflexivity. Qed.

Section FromSpec.
Variable ty : aty.
Variable ws : list Z.
Variable t : atab.
Hypothesis wf : wfA ty.
Hypothesis sp : Spec ty ws t.

(* column j adds contrib t a j to every entry a of the accumulator *)
Lemma wstep_ok : forall c j, length c = length ws -> (j < length ws)%nat ->
  (forall a, (a < length ws)%nat -> 0 <= geti c a /\ geti c a + contrib t a j <= amax ty) ->
  exists c', wstep ty t (length ws) (Some c) j = Some c' /\ length c' = length ws /\
             forall a, (a < length ws)%nat -> geti c' a = geti c a + contrib t a j.
Proof.
  intros c j Hl Hj Hb. unfold wstep. cbv zeta.
  destruct (sp_range _ _ _ sp j Hj) as [Ho Hal]. unfold alen in Hal.
  destruct (Z.ltb_spec (geti (t_odds t) j) (t_sum t)) as [Hlt|Hge].
  - specialize (Hal Hlt). set (a := Z.to_nat (geti (t_al t) j)).
    assert (Ha : (a < length ws)%nat) by (unfold a; lia).
    assert (Ec : forall a', contrib t a' j =
              if Nat.eqb a a' then t_sum t - geti (t_odds t) j else 0).
    { intros a'. apply contrib_small. exact Hlt. unfold a. lia. }
    rewrite (proj2 (Nat.ltb_lt a (length ws)) Ha).
    destruct (Hb a Ha) as [B1 B2]. rewrite Ec, Nat.eqb_refl in B2. unfold wfA in wf.
    rewrite inra_true by lia.
    eexists. split. reflexivity. split. rewrite seti_length; auto.
    intros a' Ha'. rewrite Ec. destruct (Nat.eqb_spec a a') as [<-|E].
    + apply geti_seti_same. lia.
    + rewrite geti_seti_other by exact E. lia.
  - exists c. split; auto. split; auto. intros a Ha. rewrite contrib_big by exact Hge. lia.
Qed.

Lemma wfold_ok : forall l c, length c = length ws -> (forall j, In j l -> (j < length ws)%nat) ->
  (forall a, (a < length ws)%nat -> 0 <= geti c a /\ geti c a + zsumf (contrib t a) l <= amax ty) ->
  exists c', fold_left (wstep ty t (length ws)) l (Some c) = Some c' /\ length c' = length ws /\
             forall a, (a < length ws)%nat -> geti c' a = geti c a + zsumf (contrib t a) l.
Proof.
  induction l as [|j l IH]; intros c Hl Hin Hb.
  - exists c. split; auto. split; auto. intros. rewrite zsumf_nil. lia.
  - assert (Hnn : forall a, 0 <= zsumf (contrib t a) l).
    { intros a. apply zsumf_nonneg. intros; apply contrib_nonneg. }
    destruct (wstep_ok c j Hl) as (c1 & E1 & L1 & G1).
    { apply Hin; left; auto. }
    { intros a Ha. destruct (Hb a Ha) as [B1 B2]. rewrite zsumf_cons in B2.
      specialize (Hnn a). lia. }
    cbn [fold_left]. rewrite E1.
    destruct (IH c1 L1) as (c' & E' & L' & G').
    { intros; apply Hin; right; auto. }
    { intros a Ha. destruct (Hb a Ha) as [B1 B2]. rewrite zsumf_cons in B2.
      rewrite (G1 a Ha). pose proof (contrib_nonneg t a j). lia. }
    exists c'. split; auto. split; auto. intros a Ha.
    rewrite (G' a Ha), (G1 a Ha), zsumf_cons. lia.
Qed.

Theorem weights_roundtrip : alias_weights ty t = Some ws.
Proof.
  pose proof (sp_n _ _ _ sp) as Hn. unfold wfA in wf.
  assert (Hw : forall j, (j < length ws)%nat -> 0 <= alen ws * nth j ws 0 <= amax ty).
  { intros j Hj. destruct (sp_w _ _ _ sp j Hj). split; [apply Z.mul_nonneg_nonneg|]; lia. }
  rewrite alias_weights_unfold, (sp_la _ _ _ sp).
  destruct (wfold_ok (seq 0 (length ws)) (map (fun _ : Z => 0) (t_al t))) as (c' & E & L & G).
  - rewrite map_length. apply (sp_la _ _ _ sp).
  - intros j Hj. apply in_seq in Hj. lia.
  - intros a Ha. rewrite geti_map by reflexivity. split. lia.
    pose proof (sp_mass _ _ _ sp a Ha) as M. destruct (sp_range _ _ _ sp a Ha) as [R _].
    specialize (Hw a Ha). lia.
  - rewrite E.
    assert (Hv : forall j, In j (seq 0 (length ws)) ->
              geti (t_odds t) j + geti c' j = alen ws * nth j ws 0).
    { intros j Hj. apply in_seq in Hj. rewrite G, geti_map, Z.add_0_l by (reflexivity || lia).
      apply (sp_mass _ _ _ sp j). lia. }
    rewrite (proj2 (forallb_forall _ _)).
    + f_equal. etransitivity; [|apply (map_nth_seq ws 0)]. apply map_ext_in. intros j Hj.
      rewrite (Hv j Hj). fold (alen ws).
      rewrite Z.mul_comm, Z.div_mul by lia. reflexivity.
    + intros j Hj. rewrite (Hv j Hj). apply in_seq in Hj. apply inra_true.
      specialize (Hw j). lia.
Qed.

Theorem pick_in_range : forall c r, (c < length ws)%nat -> 0 <= r < t_sum t ->
  0 <= alias_pick t c r < alen ws.
Proof.
  intros c r Hc Hr. unfold alias_pick.
  destruct (sp_range _ _ _ sp c Hc) as [R1 R2].
  destruct (Z.ltb_spec r (geti (t_odds t) c)).
  - unfold alen. lia.
  - apply R2. lia.
Qed.

(* number of thresholds r in [0, sum) for which column c yields outcome i *)
Definition pick_count (c i : nat) : Z :=
  countz (fun r => alias_pick t c (Z.of_nat r) =? Z.of_nat i) (Z.to_nat (t_sum t)).

(* thresholds below odds c select c itself, those from odds c on select its alias *)
Theorem pick_count_eq : forall c i, (c < length ws)%nat ->
  pick_count c i = (if Nat.eqb c i then geti (t_odds t) c else 0) + contrib t i c.
Proof.
  intros c i Hc. unfold pick_count, alias_pick, contrib.
  destruct (sp_range _ _ _ sp c Hc) as [R _]. pose proof (sp_pos _ _ _ sp) as Hp.
  rewrite countz_split, Z2Nat.id by lia.
  destruct (Nat.eqb_spec c i), (Z.eqb_spec (Z.of_nat c) (Z.of_nat i)); try lia;
    destruct (geti (t_al t) c =? Z.of_nat i), (Z.ltb_spec (geti (t_odds t) c) (t_sum t));
    cbn [andb]; lia.
Qed.

(* total number of (column, threshold) pairs selecting i is n * w_i *)
Theorem pair_count : forall i, (i < length ws)%nat ->
  zsumf (fun c => pick_count c i) (seq 0 (length ws)) = alen ws * nth i ws 0.
Proof.
  intros i Hi.
  rewrite (zsumf_ext _ (fun c => (if Nat.eqb c i then geti (t_odds t) c else 0) + contrib t i c)).
  - rewrite zsumf_add, zsumf_indicator.
    + apply (sp_mass _ _ _ sp i Hi).
    + apply seq_NoDup.
    + apply in_seq. lia.
  - intros c Hc. apply in_seq in Hc. apply pick_count_eq. lia.
Qed.

(* an outcome of weight 0 keeps no odds of its own and is handed nothing *)
Theorem zero_never : forall i, nth i ws 0 = 0 ->
  forall c r, (c < length ws)%nat -> 0 <= r < t_sum t -> alias_pick t c r <> Z.of_nat i.
Proof.
  intros i Hz c r Hc Hr.
  destruct (Nat.lt_ge_cases i (length ws)) as [Hi|Hi].
  - pose proof (sp_mass _ _ _ sp i Hi) as M. rewrite Hz, Z.mul_0_r in M.
    destruct (sp_range _ _ _ sp i Hi) as [[Ri _] _].
    assert (Hnn : 0 <= zsumf (contrib t i) (seq 0 (length ws))).
    { apply zsumf_nonneg. intros; apply contrib_nonneg. }
    assert (Hc0 : contrib t i c = 0).
    { apply (zsumf_zero_inv (contrib t i) (seq 0 (length ws))).
      intros; apply contrib_nonneg. lia. apply in_seq; lia. }
    unfold alias_pick. destruct (Z.ltb_spec r (geti (t_odds t) c)) as [H|H]; intro E.
    + assert (c = i) by lia. subst c. lia.
    + rewrite (contrib_small t i c i), Nat.eqb_refl in Hc0 by lia. lia.
  - pose proof (pick_in_range c r Hc Hr) as P. unfold alen in P. lia.
Qed.

End FromSpec.

Definition words_ok (ws : list Z) : Prop := Forall (fun x => 0 <= x < 2^64) ws.

Lemma lemire_S : forall f b range ws, lemire (S f) b range ws =
  match draw b ws with
  | None => None
  | Some (w, r) =>
    if (sbits_pow b - range) mod range <=? (w * range) mod sbits_pow b
    then Some (w * range / sbits_pow b, r) else lemire f b range r
  end.
Proof. reflexivity. Qed.

Theorem lemire_in_range : forall fuel b range ws v rest,
  words_ok ws -> 0 < range ->
  lemire fuel b range ws = Some (v, rest) -> 0 <= v < range /\ words_ok rest.
Proof.
  induction fuel; intros b range ws v rest HF Hr E. discriminate.
  rewrite lemire_S in E. destruct (draw b ws) as [[w r]|] eqn:D; [|discriminate].
  destruct (draw_range b ws w r HF D) as [Hw HF'].
  destruct (_ <=? _).
  - inversion E; subst. split; auto. split.
    + apply Z.div_pos. apply Z.mul_nonneg_nonneg; lia. lia.
    + apply Z.div_lt_upper_bound. lia. apply Z.mul_lt_mono_pos_r; lia.
  - eapply IHfuel; eauto.
Qed.

Theorem new_shape : forall ty ws t, wfA ty -> alias_new ty ws = Ok t ->
  length (t_al t) = length ws /\ length (t_odds t) = length ws /\
  t_sum t = asum ws /\ 0 < t_sum t.
Proof.
  intros ty ws t wf E. destruct (alias_new_spec ty ws t wf E). auto.
Qed.

Theorem new_odds_range : forall ty ws t, wfA ty -> alias_new ty ws = Ok t ->
  forall c, (c < length ws)%nat ->
  0 <= geti (t_odds t) c <= t_sum t /\
  (geti (t_odds t) c < t_sum t -> 0 <= geti (t_al t) c < alen ws).
Proof. intros ty ws t wf E. exact (sp_range _ _ _ (alias_new_spec ty ws t wf E)). Qed.

Theorem new_mass : forall ty ws t, wfA ty -> alias_new ty ws = Ok t ->
  forall i, (i < length ws)%nat ->
  geti (t_odds t) i + zsumf (contrib t i) (seq 0 (length ws)) = alen ws * nth i ws 0.
Proof. intros ty ws t wf E. exact (sp_mass _ _ _ (alias_new_spec ty ws t wf E)). Qed.

Theorem new_weights_roundtrip : forall ty ws t, wfA ty -> alias_new ty ws = Ok t ->
  alias_weights ty t = Some ws.
Proof. intros ty ws t wf E. apply weights_roundtrip; auto. apply alias_new_spec; auto. Qed.

Lemma contrib_nested : forall t i c,
  contrib t i c =
  if geti (t_odds t) c <? t_sum t
  then (if geti (t_al t) c =? Z.of_nat i then t_sum t - geti (t_odds t) c else 0) else 0.
Proof. intros. unfold contrib. destruct (_ <? _); reflexivity. Qed.

Theorem new_pick_count : forall ty ws t, wfA ty -> alias_new ty ws = Ok t ->
  forall c i, (c < length ws)%nat ->
  pick_count t c i =
  (if Nat.eqb c i then geti (t_odds t) c else 0) +
  (if geti (t_odds t) c <? t_sum t
   then (if geti (t_al t) c =? Z.of_nat i then t_sum t - geti (t_odds t) c else 0) else 0).
Proof.
  intros ty ws t wf E c i Hc. rewrite <- contrib_nested.
  apply (pick_count_eq ty ws t (alias_new_spec ty ws t wf E)); auto.
Qed.

Theorem new_pair_count : forall ty ws t, wfA ty -> alias_new ty ws = Ok t ->
  forall i, (i < length ws)%nat ->
  zsumf (fun c => pick_count t c i) (seq 0 (length ws)) = alen ws * nth i ws 0.
Proof. intros ty ws t wf E. exact (pair_count ty ws t (alias_new_spec ty ws t wf E)). Qed.

Theorem new_zero_never : forall ty ws t, wfA ty -> alias_new ty ws = Ok t ->
  forall i, nth i ws 0 = 0 ->
  forall c r, (c < length ws)%nat -> 0 <= r < t_sum t -> alias_pick t c r <> Z.of_nat i.
Proof. intros ty ws t wf E. exact (zero_never ty ws t (alias_new_spec ty ws t wf E)). Qed.

Theorem new_pick_in_range : forall ty ws t, wfA ty -> alias_new ty ws = Ok t ->
  forall c r, (c < length ws)%nat -> 0 <= r < t_sum t -> 0 <= alias_pick t c r < alen ws.
Proof. intros ty ws t wf E. exact (pick_in_range ty ws t (alias_new_spec ty ws t wf E)). Qed.
