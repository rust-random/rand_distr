(* Proofs/RejectGamma.v — analytic identities behind the Marsaglia–Tsang (2000) Gamma sampler
   (gamma.rs:190-246, GammaLargeShape::new_raw / sample_unscaled) and the small-shape boost
   (gamma.rs:176-188, 264-279).

     new_raw(shape, scale):  d = shape - 1/3;  c = 1 / sqrt (9 d)
     sample_unscaled, loop:  x = StandardNormal;  v_cbrt = 1 + c x;  if v_cbrt <= 0 { continue }
                             v = v_cbrt^3;  u = Open01;
                             if u < 1 - 0.0331 x^4  ||  ln u < x^2/2 + d (1 - v + ln v) { return v }
     GammaLargeShape::sample = v * (d * scale);   GammaSmallShape::sample = (v * u^(1/shape) * d) * scale

   With k = shape, d = k - 1/3 (so k - 1 = d - 2/3):
     mt_identity   phi(x) * a(x) = K * g(d v) * |d(d v)/dx| : the accepted x, mapped to y = d v, has density
                   proportional to the Gamma(k,1) density  g(y) = y^(k-1) e^(-y)
     mt_envelope   a(x) <= 1 (a is a probability):  x^2/2 + d (1 - v + ln v) <= 0
     mt_squeeze    the quick-accept test implies the exact one, for every d >= 2/3 (shape >= 1)
     gamma_boost_form   what the small-shape branch computes                                            *)
From Coq Require Import Reals Lra.
From Coquelicot Require Import Coquelicot.
From Interval Require Import Tactic.
From RD Require Import Proofs.RejectTools.
Open Scope R_scope.

Definition std_normal_pdf (x : R) : R := exp (- (x ^ 2 / 2)) / sqrt (2 * PI).

Definition mt_v (c x : R) : R := (1 + c * x) ^ 3.
(* the exponent of the acceptance probability: accept iff ln u < mt_logacc d c x *)
Definition mt_logacc (d c x : R) : R := x ^ 2 / 2 + d * (1 - mt_v c x + ln (mt_v c x)).
Definition mt_accept (d c x : R) : R := exp (mt_logacc d c x).
(* unnormalised Gamma(k,1) density *)
Definition gamma_kernel (k y : R) : R := Rpower y (k - 1) * exp (- y).
(* the constant of proportionality *)
Definition mt_K (d c : R) : R := exp d / (sqrt (2 * PI) * (3 * d * c) * Rpower d (d - 2 / 3)).

(* h(t) = 9 t^2/2 + 1 - (1+t)^3 + 3 ln (1+t);  mt_logacc d c x = d * h (c x) when 9 d c^2 = 1 *)
Definition mt_h (t : R) : R := 9 * t ^ 2 / 2 + 1 - (1 + t) ^ 3 + 3 * ln (1 + t).

Lemma mt_defs : forall d c x k y,
  std_normal_pdf x = exp (- (x ^ 2 / 2)) / sqrt (2 * PI) /\
  mt_v c x = (1 + c * x) ^ 3 /\
  mt_logacc d c x = x ^ 2 / 2 + d * (1 - mt_v c x + ln (mt_v c x)) /\
  mt_accept d c x = exp (mt_logacc d c x) /\
  gamma_kernel k y = Rpower y (k - 1) * exp (- y) /\
  mt_K d c = exp d / (sqrt (2 * PI) * (3 * d * c) * Rpower d (d - 2 / 3)) /\
  mt_h x = 9 * x ^ 2 / 2 + 1 - (1 + x) ^ 3 + 3 * ln (1 + x).
Proof. intros. repeat split. Qed.

Lemma mt_c_spec : forall d, 0 < d -> let c := 1 / sqrt (9 * d) in 0 < c /\ 9 * d * c ^ 2 = 1.
Proof.
  intros d Hd c. assert (Hs : 0 < sqrt (9 * d)) by (apply sqrt_lt_R0; lra).
  split; [apply Rdiv_lt_0_compat; lra |].
  rewrite <- (sqrt_sqrt (9 * d)) at 1 by lra. unfold c. field. lra.
Qed.

Lemma mt_logacc_h : forall d c x, 9 * d * c ^ 2 = 1 -> 0 < 1 + c * x ->
  mt_logacc d c x = d * mt_h (c * x).
Proof.
  intros d c x Hc Hv. unfold mt_logacc, mt_h, mt_v. rewrite ln_pow by exact Hv.
  replace (x ^ 2 / 2) with (9 * d * c ^ 2 * (x ^ 2 / 2)) by (rewrite Hc; field). simpl INR. field.
Qed.

(* (a) the density identity.
   Logarithmic form: ln phi + ln a = (k-1) ln (d v) - d v + ln (3 d c (1+cx)^2) + ln K *)
Theorem mt_identity_log : forall d c x, 0 < d -> 0 < c -> 0 < 1 + c * x ->
  - (x ^ 2 / 2) + mt_logacc d c x
  = ((d - 2 / 3) * ln (d * mt_v c x) - d * mt_v c x) + 2 * ln (1 + c * x)
    + (d - (d - 2 / 3) * ln d).
Proof.
  intros d c x Hd Hc Hv. unfold mt_logacc, mt_v.
  rewrite ln_mult, ln_pow by (try apply pow_lt; assumption). simpl INR. field.
Qed.

Theorem mt_identity : forall d c x, 0 < d -> 0 < c -> 0 < 1 + c * x ->
  std_normal_pdf x * mt_accept d c x
  = mt_K d c * gamma_kernel (d + 1 / 3) (d * mt_v c x) * (3 * d * c * (1 + c * x) ^ 2).
Proof.
  intros d c x Hd Hc Hv.
  assert (Hpi : 0 < sqrt (2 * PI)) by (apply sqrt_lt_R0; pose proof PI_RGT_0; lra).
  unfold mt_accept.
  (* exponentiate mt_identity_log, with 2 ln (1 + c x) = ln ((1 + c x)^2) *)
  replace (mt_logacc d c x)
    with (x ^ 2 / 2 + ((d - 2 / 3) * ln (d * mt_v c x) + - (d * mt_v c x) + ln ((1 + c * x) ^ 2)
          + d + - ((d - 2 / 3) * ln d)))
    by (pose proof (mt_identity_log d c x Hd Hc Hv); rewrite ln_pow by exact Hv; simpl INR; lra).
  rewrite !exp_plus, (exp_Ropp (_ * ln d)), exp_ln by (apply pow_lt; exact Hv).
  unfold std_normal_pdf, mt_K, gamma_kernel, Rpower. rewrite exp_Ropp.
  replace (d + 1 / 3 - 1) with (d - 2 / 3) by lra.
  pose proof (exp_pos (x ^ 2 / 2)). pose proof (exp_pos ((d - 2 / 3) * ln d)).
  field. repeat split; lra.
Qed.

(* the Jacobian really is the derivative of x |-> d * v(x) *)
Lemma mt_jacobian : forall d c x, is_derive (fun x => d * mt_v c x) x (3 * d * c * (1 + c * x) ^ 2).
Proof. intros d c x. unfold mt_v. auto_derive; [exact I | ring]. Qed.

Lemma mvt : forall (f f' : R -> R) (a b : R), a < b ->
  (forall t, a <= t <= b -> is_derive f t (f' t)) ->
  exists t, a < t < b /\ f b - f a = f' t * (b - a).
Proof.
  intros f f' a b Hab Hd. destruct (MVT_cor2 f f' a b Hab) as (t & E & Ht); [| exists t; tauto].
  intros t Ht. apply is_derive_Reals, Hd, Ht.
Qed.

Lemma max_at_zero : forall (f f' : R -> R) (L : R), L < 0 ->
  (forall t, L < t -> is_derive f t (f' t)) ->
  (forall t, L < t -> t * f' t <= 0) ->
  f 0 = 0 -> forall t, L < t -> f t <= 0.
Proof.
  intros f f' L HL Hd Hs H0 t Ht.
  destruct (Rtotal_order t 0) as [Hneg | [-> | Hpos]]; [| lra |].
  - destruct (mvt f f' t 0 Hneg) as (s & Hs1 & E); [intros; apply Hd; lra |].
    specialize (Hs s ltac:(lra)). nra.
  - destruct (mvt f f' 0 t Hpos) as (s & Hs1 & E); [intros; apply Hd; lra |].
    specialize (Hs s ltac:(lra)). nra.
Qed.

Lemma decr_on : forall (f f' : R -> R) (a b : R), a <= b ->
  (forall t, a <= t <= b -> is_derive f t (f' t)) ->
  (forall t, a <= t <= b -> f' t <= 0) ->
  f b <= f a.
Proof.
  intros f f' a b [Hab | ->] Hd Hs; [| lra].
  destruct (mvt f f' a b Hab Hd) as (s & Hs1 & E). specialize (Hs s ltac:(lra)). nra.
Qed.

(* the three derivatives below have the form - t^3 * k(t) with k >= 0 *)
Lemma neg_cube_sign : forall t k, 0 <= k -> t * (- t ^ 3 * k) <= 0.
Proof.
  intros t k Hk. replace (t * (- t ^ 3 * k)) with (- ((t ^ 2) ^ 2 * k)) by ring.
  pose proof (pow2_ge_0 (t ^ 2)). nra.
Qed.

Lemma mt_h_0 : mt_h 0 = 0.
Proof. unfold mt_h. rewrite Rplus_0_r, ln_1. field. Qed.

(* (b) the envelope *)
Theorem mt_h_nonpos : forall t, -1 < t -> mt_h t <= 0.
Proof.
  apply (max_at_zero mt_h (fun t => - t ^ 3 * (3 / (1 + t))) (-1)); [lra | | |].
  - intros t Ht. unfold mt_h. auto_derive; [lra | field; lra].
  - intros t Ht. apply neg_cube_sign, Rlt_le, Rdiv_lt_0_compat; lra.
  - exact mt_h_0.
Qed.

Theorem mt_envelope_gen : forall d c x, 0 < d -> 9 * d * c ^ 2 = 1 -> 0 < 1 + c * x ->
  mt_logacc d c x <= 0.
Proof.
  intros d c x Hd Hc Hv. rewrite mt_logacc_h by assumption.
  pose proof (mt_h_nonpos (c * x)). nra.
Qed.

Theorem mt_envelope : forall d x, 0 < d -> let c := 1 / sqrt (9 * d) in 0 < 1 + c * x ->
  mt_logacc d c x <= 0 /\ 0 < mt_accept d c x <= 1.
Proof.
  intros d x Hd c Hv. destruct (mt_c_spec d Hd) as [_ Hc].
  pose proof (mt_envelope_gen d c x Hd Hc Hv) as H. split; [exact H |].
  unfold mt_accept. split; [apply exp_pos |]. rewrite <- exp_0. apply exp_le_iff, H.
Qed.

(* the envelope touches: a(0) = 1 *)
Lemma mt_accept_at_0 : forall d c, mt_accept d c 0 = 1.
Proof.
  intros d c. unfold mt_accept, mt_logacc, mt_v. rewrite Rmult_0_r, Rplus_0_r, pow1, ln_1.
  rewrite <- exp_0. f_equal. field.
Qed.

(* (c) the squeeze.  With t = c x and 9 d c^2 = 1:  mt_logacc d c x = d h(c x) = h(c x) / (9 c^2).
   (1) c |-> h(c x) / (9 c^2) is non-increasing on c > 0 (its derivative is m(c x)/(9 c^3),
       m(t) = t h'(t) - 2 h(t) <= 0, h'(t) = - 3 t^3/(1+t)), so over d >= 2/3, i.e. c <= c0 = 1/sqrt 6,
       the smallest value is at d = 2/3.
   (2) at d = 2/3 (t = x / sqrt 6, 0.0331 x^4 = 1.1916 t^4):
         t >= -0.58:        (2/3) h(t) >= - 1.1916 t^4 >= ln (1 - 1.1916 t^4)      (calculus)
         -1 < t <= -0.58:   exp ((2/3) h(t)) = (1+t)^2 exp (-2t + t^2 - 2t^3/3) >= 1 - 1.1916 t^4
                            (interval arithmetic; the margin is about 6e-4 near t = -0.87).          *)

Definition mt_m (t : R) : R := - 3 * t ^ 4 / (1 + t) - 2 * mt_h t.

Lemma mt_m_nonpos : forall t, -1 < t -> mt_m t <= 0.
Proof.
  apply (max_at_zero mt_m (fun t => - t ^ 3 * (3 * (2 + t) / (1 + t) ^ 2)) (-1)); [lra | | |].
  - intros t Ht. unfold mt_m, mt_h. auto_derive; [repeat split; lra | field; lra].
  - intros t Ht. apply neg_cube_sign, Rlt_le, Rdiv_lt_0_compat; [| apply pow_lt]; lra.
  - unfold mt_m. rewrite mt_h_0. field.
Qed.

Lemma mt_d_of_c : forall d c, 0 < c -> 9 * d * c ^ 2 = 1 -> d = / (9 * c ^ 2).
Proof. intros d c Hc H. rewrite <- (Rmult_1_r (/ _)), <- H. field. lra. Qed.

Lemma mt_logacc_decr : forall d c d0 c0 x, 9 * d * c ^ 2 = 1 -> 9 * d0 * c0 ^ 2 = 1 ->
  0 < c <= c0 -> 0 < 1 + c * x -> 0 < 1 + c0 * x ->
  d0 * mt_h (c0 * x) <= d * mt_h (c * x).
Proof.
  intros d c d0 c0 x Hd Hd0 [Hc Hcc] Hv Hv0.
  rewrite (mt_d_of_c d c), (mt_d_of_c d0 c0) by lra.
  assert (Hmid : forall t, c <= t <= c0 -> 0 < 1 + t * x)
    by (intros t Ht; destruct (Rle_lt_dec 0 x); nra).
  apply (decr_on (fun c => / (9 * c ^ 2) * mt_h (c * x)) (fun c => mt_m (c * x) / (9 * c ^ 3)) c c0 Hcc);
    intros t Ht; specialize (Hmid t Ht).
  - unfold mt_m, mt_h. auto_derive; [repeat split; nra | field; lra].
  - pose proof (mt_m_nonpos (t * x) ltac:(lra)). assert (0 < t ^ 3) by (apply pow_lt; lra).
    apply Rdiv_le_iff; lra.
Qed.

(* the base case d = 2/3.  4.7664 - 2/(1+t) >= 0 exactly when t >= -0.5804 *)
Lemma mt_base_upper : forall t, -58 / 100 < t -> - (11916 / 10000 * t ^ 4) <= 2 / 3 * mt_h t.
Proof.
  intros t Ht. enough (- (2 / 3 * mt_h t + 11916 / 10000 * t ^ 4) <= 0) by lra. revert t Ht.
  apply (max_at_zero (fun t => - (2 / 3 * mt_h t + 11916 / 10000 * t ^ 4))
           (fun t => - t ^ 3 * (47664 / 10000 - 2 / (1 + t))) (-58 / 100)); [lra | | |].
  - intros t Ht. unfold mt_h. auto_derive; [lra | field; lra].
  - intros t Ht. apply neg_cube_sign.
    assert (/ (1 + t) <= / (42 / 100)) by (apply Rinv_le_contravar; lra). lra.
  - rewrite mt_h_0. ring.
Qed.

(* without i_prec, interval computes with primitive floats and the result would rest on their axioms *)
Lemma mt_base_lower : forall t, -1 <= t <= -58 / 100 ->
  1 - 11916 / 10000 * t ^ 4 <= (1 + t) ^ 2 * exp (- 2 * t + t ^ 2 - 2 * t ^ 3 / 3).
Proof.
  intros t Ht. apply Rminus_le_0.
  interval with (i_bisect t, i_taylor t, i_degree 2, i_prec 20).
Qed.

Lemma mt_base : forall t, -1 < t -> 0 < 1 - 11916 / 10000 * t ^ 4 ->
  ln (1 - 11916 / 10000 * t ^ 4) <= 2 / 3 * mt_h t.
Proof.
  intros t Ht Hy. destruct (Rlt_le_dec (-58 / 100) t) as [Hc | Hc].
  - pose proof (ln_le_minus_1 _ Hy). pose proof (mt_base_upper t Hc). lra.
  - apply Rle_trans with (ln ((1 + t) ^ 2 * exp (- 2 * t + t ^ 2 - 2 * t ^ 3 / 3))).
    + apply ln_le; [| apply mt_base_lower]; lra.
    + rewrite ln_mult, ln_exp, ln_pow by (try apply pow_lt; try apply exp_pos; lra).
      unfold mt_h. simpl INR. right. field.
Qed.

Lemma mt_squeeze_domain : forall c x, 0 < c -> c ^ 2 <= 1 / 6 -> 0 < 1 - 0.0331 * x ^ 4 ->
  -1 < c * x < 1.
Proof.
  intros c x Hc Hc6 Hx.
  assert (H6 : x ^ 2 < 6) by nra.
  assert ((c * x) ^ 2 < 1) by (replace ((c * x) ^ 2) with (c ^ 2 * x ^ 2) by ring; nra).
  split; nra.
Qed.

Theorem mt_squeeze_gen : forall d c x, 2 / 3 <= d -> 0 < c -> 9 * d * c ^ 2 = 1 ->
  0 < 1 - 0.0331 * x ^ 4 ->
  0 < 1 + c * x /\ ln (1 - 0.0331 * x ^ 4) <= mt_logacc d c x.
Proof.
  intros d c x Hd Hc Hdc Hx.
  destruct (mt_c_spec (2 / 3) ltac:(lra)) as [Hc0 Hdc0]. set (c0 := 1 / sqrt (9 * (2 / 3))) in *.
  assert (Hcc : c <= c0) by nra.
  destruct (mt_squeeze_domain c x Hc ltac:(nra) Hx) as [Hv1 Hv2].
  destruct (mt_squeeze_domain c0 x Hc0 ltac:(lra) Hx) as [Hw1 Hw2].
  split; [lra |]. rewrite mt_logacc_h by lra.
  apply Rle_trans with (2 / 3 * mt_h (c0 * x)); [| apply mt_logacc_decr; lra].
  replace (0.0331 * x ^ 4) with (11916 / 10000 * (c0 * x) ^ 4) in *.
  - apply mt_base; lra.
  - replace ((c0 * x) ^ 4) with ((c0 ^ 2) ^ 2 * x ^ 4) by ring. replace (c0 ^ 2) with (1 / 6) by lra. lra.
Qed.

Theorem mt_squeeze : forall d x, 2 / 3 <= d -> let c := 1 / sqrt (9 * d) in
  0 < 1 - 0.0331 * x ^ 4 ->
  0 < 1 + c * x /\ ln (1 - 0.0331 * x ^ 4) <= mt_logacc d c x.
Proof.
  intros d x Hd c Hx. destruct (mt_c_spec d ltac:(lra)). apply mt_squeeze_gen; assumption.
Qed.

(* in terms of the uniform u of the code: the quick test implies the exact test *)
Corollary mt_squeeze_test : forall d x u, 2 / 3 <= d -> let c := 1 / sqrt (9 * d) in
  0 < u -> u < 1 - 0.0331 * x ^ 4 -> ln u < mt_logacc d c x.
Proof.
  intros d x u Hd c Hu Hq. destruct (mt_squeeze d x Hd ltac:(lra)) as [_ H].
  apply Rlt_le_trans with (2 := H). apply ln_increasing; lra.
Qed.

(* (d) the small-shape boost.
   GammaSmallShape::sample (shape k < 1): a = v from the Marsaglia–Tsang loop for shape k+1 (so
   d = k + 1 - 1/3 and G = d * v is the Gamma(k+1,1) variate), b = u^(1/k); returns (a*b*d)*scale. *)
Theorem gamma_boost_form : forall k scale v u, 0 < k ->
  let d := k + 1 - 1 / 3 in
  (v * Rpower u (1 / k) * d) * scale = scale * ((d * v) * Rpower u (/ k)).
Proof. intros k scale v u Hk d. unfold Rdiv. rewrite Rmult_1_l. ring. Qed.

(* GammaLargeShape::sample: v * (d * scale) = scale * (d v) *)
Theorem gamma_large_form : forall d scale v, v * (d * scale) = scale * (d * v).
Proof. intros. ring. Qed.

(* (e) why the boost gives Gamma(k) for k < 1.
   Conditionally on G = t the boosted variate t * u^(1/k) is below y exactly when u <= (y/t)^k: its
   conditional cdf is min(1, (y/t)^k), whose y-derivative for y < t is k y^(k-1) t^(-k) *)
Theorem gamma_boost_event : forall k t u y, 0 < k -> 0 < t -> 0 < u -> 0 < y ->
  (t * Rpower u (1 / k) <= y <-> u <= Rpower (y / t) k).
Proof.
  intros k t u y Hk Ht Hu Hy. remember (Rpower u (1 / k)) as w eqn:Ew.
  assert (Hw : 0 < w) by (rewrite Ew; apply exp_pos).
  assert (Hyt : 0 < y / t) by (apply Rdiv_lt_0_compat; assumption).
  replace u with (Rpower w k).
  2:{ rewrite Ew, Rpower_mult. replace (1 / k * k) with 1 by (field; lra). apply Rpower_1, Hu. }
  (* w <= y/t  <->  w^k <= (y/t)^k *)
  rewrite Rmult_comm, Rle_div_r by lra. split; intros H.
  - apply Rle_Rpower_l; lra.
  - apply Rnot_lt_le. intros L. pose proof (Rlt_Rpower_l (y / t) w k Hk (conj Hyt L)). lra.
Qed.
(* the density kernel of the boosted variate at y: integrating the Gamma(k+1) kernel t^k e^-t against the
   conditional density k y^(k-1) t^-k over t in (y, M) gives k y^(k-1) (e^-y - e^-M) ... *)
Theorem gamma_boost_kernel : forall k y M, 0 < k -> 0 < y -> y < M ->
  is_RInt (fun t => gamma_kernel (k + 1) t * (k * Rpower y (k - 1) * Rpower t (- k))) y M
          (k * Rpower y (k - 1) * (exp (- y) - exp (- M))).
Proof.
  intros k y M Hk Hy HM.
  apply (is_RInt_ext (fun t => k * Rpower y (k - 1) * exp (- t))).
  - intros t Ht. rewrite Rmin_left, Rmax_right in Ht by lra.
    unfold gamma_kernel. replace (k + 1 - 1) with k by ring. rewrite Rpower_Ropp.
    pose proof (exp_pos (k * ln t)) as P. fold (Rpower t k) in P. simpl. field. lra.
  - replace (exp (- y) - exp (- M)) with (- exp (- M) + - - exp (- y)) by ring.
    apply (is_RInt_scal (fun t => exp (- t))).
    apply (is_RInt_derive (fun t => - exp (- t)) (fun t => exp (- t))); intros t _.
    + auto_derive; [exact I | ring].
    + apply (ex_derive_continuous (fun t => exp (- t))). auto_derive. exact I.
Qed.

(* ... which tends to k * y^(k-1) e^-y = k * (Gamma(k) kernel at y) as M -> infinity; with Gamma(k+1) = k Gamma(k)
   the normalised density of the boosted variate is the Gamma(k) density.  (The interchange of d/dy with the
   t-integral and the passage to the law of the sampler are the bridge B1-B4, not formalised.) *)
Theorem gamma_boost_kernel_limit : forall k y, 0 < k -> 0 < y ->
  is_lim (fun M => k * Rpower y (k - 1) * (exp (- y) - exp (- M))) p_infty (k * gamma_kernel k y).
Proof.
  intros k y Hk Hy. unfold gamma_kernel.
  replace (k * (Rpower y (k - 1) * exp (- y))) with (k * Rpower y (k - 1) * (exp (- y) - 0)) by ring.
  apply (is_lim_scal_l (fun M => exp (- y) - exp (- M)) _ p_infty (exp (- y) - 0)).
  apply (is_lim_minus' (fun _ => exp (- y)) (fun M => exp (- M))); [apply is_lim_const |].
  apply (is_lim_comp exp Ropp p_infty 0 m_infty); [apply is_lim_exp_m | |].
  - apply (is_lim_opp id p_infty p_infty), is_lim_id.
  - exists 0. intros x _. discriminate.
Qed.
