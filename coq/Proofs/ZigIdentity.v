(* Proofs/ZigIdentity.v — the ziggurat density identity (real-number part).

   One pass of the loop in utils.rs:62-96 with N layers (N = 256 in the crate):
     layer i uniform on {0..N-1};  proposal x = u * X i;
     rectangle: accept when x < X (S i);
     wedge (i >= 1): accept when Fv (S i) + (Fv i - Fv (S i)) * U < f x;
     tail  (i = 0): sample from the tail beyond r = X 1.
   For a point x of the body with X (S k) <= x < X k the sub-density of "this pass returns x" is
       D(x) = (1/N) * [ sum_{i<N, x < X (S i)} 1/X i  +  (1/X k) * (f x - Fv k)/(Fv (S k) - Fv k) ]
   and the ziggurat equations  X 0 * Fv 1 = v,  X i * (Fv (S i) - Fv i) = v  give
       D(x) = f x / (N v),
   i.e. every pass returns a sample of density proportional to f; N v is the area of the ziggurat.
   The table orientation is that of the code: X decreasing, Fv increasing in the index.      *)
From Coq Require Import Reals Lra Lia.
From RD Require Import Proofs.RejectTools.
Open Scope R_scope.

(* sum_{i<k} 1 / X i : rectangle acceptances of the layers 0..k-1 (layer 0 included) *)
Fixpoint rect_sum (X : nat -> R) (k : nat) : R :=
  match k with
  | O => 0
  | S j => rect_sum X j + / X j
  end.

(* sum_{i<n, x < X (S i)} 1 / X i : the same sum, selected by the code's rectangle test *)
Fixpoint rect_sum_test (X : nat -> R) (x : R) (n : nat) : R :=
  match n with
  | O => 0
  | S j => rect_sum_test X x j + (if Rlt_dec x (X (S j)) then / X j else 0)
  end.

(* symmetric proposal: density 1 / (2 X i) on (-X i, X i) *)
Fixpoint rect_sum_sym (X : nat -> R) (k : nat) : R :=
  match k with
  | O => 0
  | S j => rect_sum_sym X j + / (2 * X j)
  end.

(* defining equations, re-exported by Props/C06_identity.v so that the statements there can be read
   without this file *)
Lemma rect_sum_def : forall X, rect_sum X 0 = 0 /\ forall k, rect_sum X (S k) = rect_sum X k + / X k.
Proof. intros X. split; reflexivity. Qed.
Lemma rect_sum_test_def : forall X x, rect_sum_test X x 0 = 0 /\
  forall n, rect_sum_test X x (S n) = rect_sum_test X x n + (if Rlt_dec x (X (S n)) then / X n else 0).
Proof. intros X x. split; reflexivity. Qed.
Lemma rect_sum_sym_def : forall X, rect_sum_sym X 0 = 0 /\
  forall k, rect_sum_sym X (S k) = rect_sum_sym X k + / (2 * X k).
Proof. intros X. split; reflexivity. Qed.

Section Zig.
  Variable N : nat.
  Variables X Fv : nat -> R.
  Variable f : R -> R.
  Variable v : R.

  Hypothesis HN : (2 <= N)%nat.
  Hypothesis Xpos : forall i, (i < N)%nat -> 0 < X i.
  Hypothesis Xdec : forall i, (i < N)%nat -> X (S i) < X i.
  Hypothesis XN : X N = 0.
  Hypothesis vpos : 0 < v.
  Hypothesis Hbase : X 0 * Fv 1 = v.
  Hypothesis Hlayer : forall i, (1 <= i < N)%nat -> X i * (Fv (S i) - Fv i) = v.
  Hypothesis HF : forall i, (1 <= i <= N)%nat -> Fv i = f (X i).
  Hypothesis fdec : forall a b, 0 <= a -> a <= b -> b <= X 1 -> f b <= f a.

  Lemma X_antitone : forall i j, (i < j)%nat -> (j <= N)%nat -> X j < X i.
  Proof.
    intros i j Hij. induction Hij as [|m Hm IH]; intros HjN.
    - apply Xdec. lia.
    - apply Rlt_trans with (X m).
      + apply Xdec. lia.
      + apply IH. lia.
  Qed.

  Lemma X_antitone_le : forall i j, (i <= j)%nat -> (j <= N)%nat -> X j <= X i.
  Proof.
    intros i j Hij HjN. destruct (Nat.eq_dec i j) as [->|Hne].
    - apply Rle_refl.
    - apply Rlt_le. apply X_antitone; lia.
  Qed.

  (* the layer heights are strictly increasing: Fv (S i) - Fv i = v / X i > 0 *)
  Lemma Fv_step : forall i, (1 <= i < N)%nat -> Fv (S i) - Fv i = v / X i.
  Proof.
    intros i Hi. pose proof (Xpos i ltac:(lia)) as P. pose proof (Hlayer i Hi) as E.
    rewrite <- E. field. lra.
  Qed.

  Lemma Fv_step_pos : forall i, (1 <= i < N)%nat -> 0 < Fv (S i) - Fv i.
  Proof.
    intros i Hi. rewrite (Fv_step i Hi). apply Rdiv_lt_0_compat; [exact vpos|].
    apply Xpos. lia.
  Qed.

  Lemma Fv1_pos : 0 < Fv 1.
  Proof. pose proof (Xpos 0%nat ltac:(lia)). nra. Qed.

  (* telescoping: the rectangle acceptances of layers 0..k-1 add up to Fv k / v *)
  Lemma rect_sum_telescope : forall k, (1 <= k <= N)%nat -> rect_sum X k = Fv k / v.
  Proof.
    induction k as [|k IH]; intros Hk; [lia|].
    destruct k as [|k'].
    - simpl. pose proof (Xpos 0%nat ltac:(lia)) as P. pose proof Fv1_pos as F1. rewrite <- Hbase.
      field. split; lra.
    - change (rect_sum X (S (S k'))) with (rect_sum X (S k') + / X (S k')).
      rewrite IH by lia.
      pose proof (Xpos (S k') ltac:(lia)) as P.
      pose proof (Fv_step (S k') ltac:(lia)) as E.
      replace (Fv (S (S k'))) with (Fv (S k') + v / X (S k')) by lra.
      field. split; lra.
  Qed.

  (* for x in layer k's wedge strip [X (S k), X k): the rectangle test of layer i succeeds
     exactly for the layers i < k *)
  Lemma zig_rect_layers : forall k x, (k < N)%nat -> X (S k) <= x < X k ->
    forall i, (i < N)%nat -> (x < X (S i) <-> (i < k)%nat).
  Proof.
    intros k x Hk [Hx1 Hx2] i Hi. split.
    - intros Hlt. destruct (le_lt_dec k i) as [Hki|]; [|assumption].
      exfalso. pose proof (X_antitone_le (S k) (S i) ltac:(lia) ltac:(lia)). lra.
    - intros Hik. pose proof (X_antitone_le (S i) k ltac:(lia) ltac:(lia)). lra.
  Qed.

  Lemma rect_sum_test_min : forall k x, (k < N)%nat -> X (S k) <= x < X k ->
    forall n, (n <= N)%nat -> rect_sum_test X x n = rect_sum X (Nat.min n k).
  Proof.
    intros k x Hk Hx. induction n as [|n IH]; intros Hn; [reflexivity|].
    cbn [rect_sum_test]. rewrite IH by lia.
    pose proof (zig_rect_layers k x Hk Hx n ltac:(lia)) as L.
    destruct (Rlt_dec x (X (S n))) as [T|T].
    - apply L in T. rewrite (Nat.min_l (S n)), (Nat.min_l n) by lia. reflexivity.
    - assert (k <= n)%nat by (destruct (le_lt_dec k n); tauto). rewrite !Nat.min_r by lia. lra.
  Qed.

  (* the code's rectangle test selects exactly rect_sum k *)
  Lemma rect_sum_test_eq : forall k x, (k < N)%nat -> X (S k) <= x < X k ->
    rect_sum_test X x N = rect_sum X k.
  Proof. intros k x Hk Hx. rewrite (rect_sum_test_min k x Hk Hx), Nat.min_r by lia. reflexivity. Qed.

  Lemma zig_wedge_prob_range : forall k x, (1 <= k < N)%nat -> X (S k) <= x < X k ->
    0 <= (f x - Fv k) / (Fv (S k) - Fv k) <= 1.
  Proof.
    intros k x Hk [Hx1 Hx2].
    pose proof (Fv_step_pos k Hk) as Dp.
    assert (H0 : 0 <= X (S k)).
    { rewrite <- XN. apply X_antitone_le; lia. }
    assert (Hk1 : X k <= X 1) by (apply X_antitone_le; lia).
    assert (L : Fv k <= f x).
    { rewrite (HF k) by lia. apply fdec; lra. }
    assert (U : f x <= Fv (S k)).
    { rewrite (HF (S k)) by lia. apply fdec; lra. }
    assert (E : (f x - Fv k) / (Fv (S k) - Fv k) * (Fv (S k) - Fv k) = f x - Fv k) by (field; lra).
    split; nra.
  Qed.

  Lemma INR_N_pos : 0 < INR N.
  Proof. apply lt_0_INR. lia. Qed.

  (* the body identity, one-sided (exponential) *)
  Theorem zig_density_identity : forall k x, (1 <= k < N)%nat ->
    (rect_sum X k + (/ X k) * (f x - Fv k) / (Fv (S k) - Fv k)) / INR N = f x / (INR N * v).
  Proof.
    intros k x Hk.
    rewrite (rect_sum_telescope k) by lia.
    rewrite (Fv_step k Hk).
    pose proof (Xpos k ltac:(lia)) as P. pose proof INR_N_pos as Q.
    field. repeat split; lra.
  Qed.

  (* the same with the rectangle sum selected by the code's test x < X (S i) over all N layers *)
  Theorem zig_density_identity_test : forall k x, (1 <= k < N)%nat -> X (S k) <= x < X k ->
    (rect_sum_test X x N + (/ X k) * (f x - Fv k) / (Fv (S k) - Fv k)) / INR N = f x / (INR N * v).
  Proof.
    intros k x Hk Hx. rewrite (rect_sum_test_eq k x) by (lia || exact Hx).
    apply zig_density_identity. exact Hk.
  Qed.

  (* symmetric (normal): proposal density 1/(2 X i), test |x| < X (S i), target f|x| / 2 *)
  Lemma rect_sum_sym_half : forall k, (k <= N)%nat -> rect_sum_sym X k = rect_sum X k / 2.
  Proof.
    induction k as [|k IH]; intros Hk; simpl.
    - lra.
    - rewrite IH by lia. pose proof (Xpos k ltac:(lia)). field. lra.
  Qed.

  Theorem zig_density_identity_sym : forall k x, (1 <= k < N)%nat ->
    (rect_sum_sym X k + (/ (2 * X k)) * (f (Rabs x) - Fv k) / (Fv (S k) - Fv k)) / INR N
    = (f (Rabs x) / 2) / (INR N * v).
  Proof.
    intros k x Hk.
    rewrite rect_sum_sym_half, (rect_sum_telescope k), (Fv_step k Hk) by lia.
    pose proof (Xpos k ltac:(lia)) as P. pose proof INR_N_pos as Q.
    field. repeat split; lra.
  Qed.

  (* T = tail mass beyond r = X 1; base strip = rectangle X 1 * Fv 1 plus tail = v *)
  Theorem zig_tail_identity : forall T fx, 0 < T -> X 1 * Fv 1 + T = v ->
    / INR N * (1 - X 1 / X 0) * (fx / T) = fx / (INR N * v).
  Proof.
    intros T fx HT Hstrip.
    pose proof (Xpos 0%nat ltac:(lia)) as P. pose proof INR_N_pos as Q. pose proof Fv1_pos as F1.
    assert (ET : T = (X 0 - X 1) * Fv 1) by lra.
    assert (D : X 0 - X 1 <> 0) by nra.
    rewrite <- Hbase, ET. field. repeat split; lra.
  Qed.

  Theorem zig_tail_identity_sym : forall T fx, 0 < T -> X 1 * Fv 1 + T = v ->
    / INR N * (1 - X 1 / X 0) * (/ 2 * (fx / T)) = (fx / 2) / (INR N * v).
  Proof.
    intros T fx HT Hstrip. rewrite <- (zig_tail_identity T (fx / 2) HT Hstrip). f_equal. field. lra.
  Qed.

  Lemma zig_tail_prob_range : 0 < 1 - X 1 / X 0 < 1.
  Proof.
    pose proof (Xpos 0%nat ltac:(lia)) as P0. pose proof (Xpos 1%nat ltac:(lia)) as P1.
    pose proof (Xdec 0%nat ltac:(lia)) as D.
    assert (E : X 1 / X 0 * X 0 = X 1) by (field; lra).
    split; nra.
  Qed.
End Zig.

(* the hypotheses of the section are satisfiable: a 2-layer ziggurat for f x = 1 - x, r = 3/4 *)
Lemma zig_hyps_nonvacuous : exists (N : nat) (X Fv : nat -> R) (f : R -> R) (v T : R),
  (2 <= N)%nat /\
  (forall i, (i < N)%nat -> 0 < X i) /\
  (forall i, (i < N)%nat -> X (S i) < X i) /\
  X N = 0 /\
  0 < v /\
  X 0%nat * Fv 1%nat = v /\
  (forall i, (1 <= i < N)%nat -> X i * (Fv (S i) - Fv i) = v) /\
  (forall i, (1 <= i <= N)%nat -> Fv i = f (X i)) /\
  (forall a b, 0 <= a -> a <= b -> b <= X 1%nat -> f b <= f a) /\
  0 < T /\ X 1%nat * Fv 1%nat + T = v.
Proof.
  exists 2%nat,
    (fun i => match i with 0%nat => 9/4 | 1%nat => 3/4 | _ => 0 end),
    (fun i => match i with 0%nat => 0 | 1%nat => 1/4 | _ => 1 end),
    (fun x => 1 - x), (9/16), (3/8).
  repeat split; try lra; try lia.
  - intros i Hi. destruct i as [|[|i]]; [lra|lra|lia].
  - intros i Hi. destruct i as [|[|i]]; [lra|lra|lia].
  - intros i Hi. destruct i as [|[|i]]; [lia|lra|lia].
  - intros i Hi. destruct i as [|[|[|i]]]; [lia|lra|lra|lia].
  - intros a b _ Hab _. lra.
Qed.

(* exponential.rs:75  zero_case = r - ln u :  P(r - ln u <= x) = P(u >= e^{-(x-r)}) = 1 - e^{-(x-r)} *)
Theorem exp_tail_event : forall r u x, 0 < u ->
  (r - ln u <= x <-> exp (- (x - r)) <= u).
Proof.
  intros r u x Hu.
  rewrite <- (exp_ln u Hu) at 2. rewrite exp_le_iff. split; intros; lra.
Qed.

(* ... whose density is e^{-x} / e^{-r} = f x / T with T = tail mass of e^{-t} beyond r *)
Theorem exp_tail_density : forall r x, exp (- (x - r)) = exp (- x) / exp (- r).
Proof.
  intros r x. replace (- (x - r)) with (- x + r) by ring.
  rewrite exp_plus, (exp_Ropp r). pose proof (exp_pos r). field. lra.
Qed.

(* normal.rs:77-83 (Marsaglia).  The proposal x = -ln(u1)/r has density r e^{-r x} on x >= 0: *)
Theorem normal_tail_proposal : forall r u1 x, 0 < r -> 0 < u1 ->
  (- ln u1 / r <= x <-> exp (- (r * x)) <= u1).
Proof.
  intros r u1 x Hr Hu.
  rewrite <- (exp_ln u1 Hu) at 2. rewrite exp_le_iff.
  assert (E : - ln u1 / r * r = - ln u1) by (field; lra).
  split; intros; nra.
Qed.

(* the loop `while -2.0 * y < x * x` with y = ln u2 exits (accepts) iff u2 <= e^{-x^2/2} *)
Theorem normal_tail_accept : forall u2 x, 0 < u2 ->
  (~ (-2 * ln u2 < x * x) <-> u2 <= exp (- (x * x) / 2)).
Proof.
  intros u2 x Hu.
  rewrite <- (exp_ln u2 Hu) at 2. rewrite exp_le_iff. split; intros; lra.
Qed.

(* in the code x is ln(u1)/r (the negative of the proposal); the test only sees x*x *)
Theorem normal_tail_accept_code : forall r u1 u2, 0 < u2 ->
  let x := - ln u1 / r in
  (~ (-2 * ln u2 < (ln u1 / r) * (ln u1 / r)) <-> u2 <= exp (- (x * x) / 2)).
Proof.
  intros r u1 u2 Hu x.
  replace ((ln u1 / r) * (ln u1 / r)) with (x * x).
  - apply normal_tail_accept. exact Hu.
  - unfold x, Rdiv. ring.
Qed.

(* accepted density: proposal * acceptance is proportional to the normal density at r + x *)
Theorem normal_tail_density : forall r x,
  r * exp (- (r * x)) * exp (- (x * x) / 2) = r * exp (r * r / 2) * exp (- ((x + r) * (x + r)) / 2).
Proof.
  intros r x. rewrite !Rmult_assoc. f_equal. rewrite <- !exp_plus. f_equal. field.
Qed.
