(* Proofs/SupportHyper.v — property C03 on the executable model of the Hypergeometric sampler
   (Model/Discrete.v: HIN inverse transform and H2PE rejection, with the two symmetry reductions):
   under the exact real semantics every returned value lies in [max(0, n+K-N), min(n, K)] and the
   panic marker (failure code 3: u64 underflow in the products of step 4.1) is unreachable.
   Same conventions as Proofs/SupportDiscrete.v.                                                     *)
From Coq Require Import Reals List Lra Lia Bool.
From Interval Require Import Xreal.
From Flocq Require Import Core.
From RD Require Import Base.Expr Base.Run Model.Sampler Model.Continuous Model.Discrete
  Proofs.LawsInvCdf Proofs.Support Proofs.LoopBounds Proofs.PmfRatioModel Proofs.SupportDiscrete.
Open Scope Z_scope.
Open Scope sampler_scope.

Import ExprNotations.

(* step 4 reads no word, cannot panic, and accepts only the y it was given *)
Lemma h2pe_f41_spec n1 n2 k m y ws : 0 <= m <= Z.min n1 k -> y <= Z.min n1 k ->
  allout (fun q => snd q = ws) (fun _ => False) (h2pe_f41 n1 n2 k m y ws).
Proof.
  intros Hm Hy. unfold h2pe_f41. destruct (Z.ltb_spec m y) as [L|L].
  - rewrite h2pe_up_value by lia. reflexivity.
  - rewrite h2pe_down_value by lia. reflexivity.
Qed.

Definition step4_post (y : Z) (ws : list Z) (q : option Z * list Z) : Prop :=
  snd q = ws /\ match fst q with Some y' => y' = y | None => True end.

Lemma allout_sask {A} (P : A * list Z -> Prop) Q c a b (k : bool -> sampler A) ws :
  (forall t, allout P Q (k t ws)) -> allout P Q (sbind (sask c a b) k ws).
Proof. intros H x y _ _. apply H. Qed.
Lemma allout_sask_if {A} (P : A * list Z -> Prop) Q c a b (m1 m2 : sampler A) ws :
  allout P Q (m1 ws) -> allout P Q (m2 ws) -> allout P Q ((t <- sask c a b ;; if t then m1 else m2) ws).
Proof. intros H1 H2. apply allout_sask. intros []; assumption. Qed.
Lemma allout_sneg {A} (P : A * list Z -> Prop) Q z x (k : bool -> sampler A) ws :
  (forall t, allout P Q (k t ws)) -> allout P Q (sbind (sneg z x) k ws).
Proof. intros H. destruct z; [apply H|apply allout_sask, H]. Qed.

Lemma h2pe_step4_spec n1 n2 k m a y v vz ws : 0 <= m <= Z.min n1 k -> y <= Z.min n1 k ->
  allout (step4_post y ws) (fun _ => False) (h2pe_step4 n1 n2 k m a y v vz ws).
Proof.
  intros Hm Hy. unfold h2pe_step4. cbv zeta.
  assert (step4_post y ws (Some y, ws) /\ step4_post y ws (None, ws)) as [Acc Rej] by (repeat split).
  destruct ((m <? 100) || (y <=? 50)).
  - eapply allout_sbind; [apply (h2pe_f41_spec n1 n2 k m y ws Hm Hy)|auto|].
    intros f ws' A. cbn [snd] in A. subst ws'. apply allout_sask_if; [exact Acc|exact Rej].
  - apply allout_sask. intros gneg. destruct vz; [exact Acc|].
    apply allout_sask_if; [exact Rej|]. do 4 (apply allout_sneg; intros ?).
    apply allout_sask_if; [exact Acc|]. apply allout_sask_if; [exact Acc|exact Rej].
Qed.

Local Open Scope R_scope.
Lemma u53_pos w : word w -> (w / 2 ^ 11 =? 0)%Z = false -> 0 < uR_std F64 w < 1.
Proof.
  intros Hw Hz. split; [|apply uR_std_range, Hw]. apply div_gt_0; [apply pow_lt; lra|]. apply (IZR_lt 0).
  apply Z.eqb_neq in Hz. pose proof (Z.div_pos w (2 ^ 11) (proj1 Hw) eq_refl). lia.
Qed.

(* the exponential tail proposals: ln v / lambda < 0 for a uniform v in (0,1) and a rate lambda >= 0 (a defined
   quotient has lambda <> 0) *)
Lemma tail_offset_neg lam w z : dnn lam -> word w -> (w / 2 ^ 11 =? 0)%Z = false ->
  evalX (eln (u_std F64 w) /. lam) = Xreal z -> z < 0.
Proof.
  intros Hl Hw Hz E. apply div_real in E. destruct E as (l & L & El & EL & NZ & ->).
  apply ln_real in El. destruct El as (v & Ev & _ & ->). rewrite u_std_eval in Ev.
  assert (0 < - ln v) as LV by (replace v with (uR_std F64 w) by congruence; apply ln_neg_pos, u53_pos; assumption).
  assert (0 < L) as LP by (destruct (Hl L EL) as [P|P]; [exact P|now elim NZ]).
  pose proof (div_gt_0 _ _ LP LV). unfold Rdiv in * . nra.
Qed.

Lemma Zfloor_lt_succ x n : x < IZR n + 1 -> (Zfloor x <= n)%Z.
Proof.
  intros H. apply Zlt_succ_le, lt_IZR. rewrite succ_IZR. apply Rle_lt_trans with x; [apply Zfloor_lb|exact H].
Qed.

Section H2peLoop.
Variables (n1 n2 k m : Z) (a lambda_l lambda_r x_l x_r p1 p2 p3 : expr).
Variables (XL XR P1 : R).
Let t := Z.min n1 k.
Hypothesis Hm : (0 <= m <= t)%Z.
Hypothesis Hk : (k <= n2)%Z.
Hypothesis E_xl : evalX x_l = Xreal XL.
Hypothesis E_xr : evalX x_r = Xreal XR.
Hypothesis E_p1 : evalX p1 = Xreal P1.
Hypothesis HXL : 0 <= XL <= IZR m.
Hypothesis HXR0 : 0 <= XR.
Hypothesis H1up : XL + P1 < IZR t + 1.
Hypothesis HP3 : dnn p3.
Hypothesis HLL : dnn lambda_l.
Hypothesis HLR : dnn lambda_r.

Let post (q : Z * list Z) : Prop := (0 <= fst q <= t)%Z.

Lemma h2pe_step4_ret (again : sampler Z) y v vz ws : (0 <= y <= t)%Z ->
  allout post nopanic (again ws) ->
  allout post nopanic
    ((o <- h2pe_step4 n1 n2 k m a y v vz ;; match o with Some y => sret y | None => again end) ws).
Proof.
  intros Hy Ha. eapply allout_sbind; [apply h2pe_step4_spec; [exact Hm|fold t; lia]|intros ? []|].
  intros o ws' [A B]. cbn [fst snd] in A, B. subst ws'. destruct o as [y'|]; [subst y'; exact Hy|exact Ha].
Qed.

(* region 1 has no range test in the code: floor (x_l + u) with 0 <= u <= p1 is in [0, t] by the set-up;
   the left tail stays below m, the right tail above 0, and each is tested on its other side *)
Lemma h2pe_loop_spec fuel : forall ws, Forall word ws ->
  allout post nopanic (h2pe_loop n1 n2 k m a lambda_l lambda_r x_l x_r p1 p2 p3 fuel ws).
Proof.
  induction fuel as [|fu IH]; intros ws Hw; [exact nopanic2|].
  destruct Hw as [|w1 ? Hw1 [|w2 ws Hw2 Hws]]; cbn [h2pe_loop]; cbv zeta; lstep; [exact nopanic1|exact nopanic1|].
  intros xu xp Exu Exp. rewrite E_p1 in Exp. injection Exp as <-.
  assert (0 <= xu) as HU.
  { refine (dnn_mul _ _ (dnn_dy (w1 / 2 ^ 12) (-52) _) HP3 xu Exu). apply Z.div_pos; [apply Hw1|lia]. }
  unfold rcmp at 1. destruct (Rle_dec xu P1) as [G1|G1].
  { apply (sfloor_value _ _ _ _ _ _ (add_eval _ _ _ _ E_xl Exu)).
    apply h2pe_step4_ret; [|apply IH, Hws]. split; [apply Zfloor_lub; simpl; lra|apply Zfloor_lt_succ; lra]. }
  destruct (w2 / 2 ^ 11 =? 0)%Z eqn:VZ; [apply IH, Hws|].
  lstep. intros xu2 xp2 _ _. destruct (rcmp CLe xu2 xp2); unfold sfloor; cbn [sbind bind allout]; intros z Ez.
  - apply add_real in Ez. destruct Ez as (x & y & Hx & Hy & ->). rewrite E_xl in Hx. injection Hx as <-.
    apply (tail_offset_neg _ _ _ HLL Hw2 VZ) in Hy.
    replace (Z.max 0 (k - n2)) with 0%Z by lia.
    destruct (Z.leb_spec 0 (Zfloor (XL + y))) as [L|L]; [|apply IH, Hws].
    apply h2pe_step4_ret; [|apply IH, Hws]. split; [exact L|].
    apply Z.le_trans with m; [apply Zfloor_lt_succ; lra|apply Hm].
  - apply sub_real in Ez. destruct Ez as (x & y & Hx & Hy & ->). rewrite E_xr in Hx. injection Hx as <-.
    apply (tail_offset_neg _ _ _ HLR Hw2 VZ) in Hy.
    fold t. destruct (Z.leb_spec (Z.max (Zfloor (XR - y)) 0) t) as [L|L]; [|apply IH, Hws].
    apply h2pe_step4_ret; [|apply IH, Hws]. split; [apply Zfloor_lub; simpl; lra|lia].
Qed.
End H2peLoop.

(* the constants of the H2PE set-up over the reals: MR is the mode before flooring, VAR the variance, D = 1.5 sqrt VAR + 0.5 *)
Definition h2pe_var (N n1 n2 k : R) : R := (N - k) * k * n1 * n2 / ((N - 1) * N * N).
Definition h2pe_d (N n1 n2 k : R) : R := 3 / 2 * sqrt (h2pe_var N n1 n2 k) + / 2.

Section H2peSetupR.
Variables (N n1 n2 k M T : R).
Hypothesis HN : n1 + n2 = N.
Hypothesis Hn1 : 0 <= n1 <= n2.
Hypothesis Hk : 0 <= k /\ 2 * k <= N.
Hypothesis HT : T <= n1 /\ T <= k /\ (T = n1 \/ T = k).
Let MR := (k + 1) * (n1 + 1) / (N + 2).
Hypothesis HM : M <= MR < M + 1.
Hypothesis HM10 : 10 <= M.
Let VAR := h2pe_var N n1 n2 k.
Let SD := sqrt VAR.
Let D := h2pe_d N n1 n2 k.

Lemma h2pe_MR_eq : MR * (N + 2) = (k + 1) * (n1 + 1).
Proof. unfold MR. field. lra. Qed.
Lemma h2pe_T19 : 19 <= T /\ M <= (T + 1) / 2.
Proof. pose proof h2pe_MR_eq. destruct HT as (T1 & T2 & [->| ->]); split; nra. Qed.
Lemma h2pe_den_pos : 0 < (N - 1) * N * N.
Proof. pose proof h2pe_T19. apply Rmult_lt_0_compat; [apply Rmult_lt_0_compat|]; lra. Qed.
Lemma h2pe_VAR_bounds : 0 <= VAR /\ VAR <= T / 2 /\ VAR <= MR.
Proof.
  pose proof h2pe_T19 as [T19 _]. destruct HT as (T1 & T2 & TT). pose proof h2pe_den_pos as DP.
  assert (0 <= k * n1) as KN by (apply Rmult_le_pos; lra).
  (* VAR = (k n1 / N) * ((N - k) n2 / ((N - 1) N)), and the second factor is at most 1 *)
  assert (VAR * N <= k * n1) as V1.
  { replace (VAR * N) with (k * n1 * ((N - k) * n2 / (N * (N - 1)))) by (unfold VAR, h2pe_var; field; lra).
    rewrite <- (Rmult_1_r (k * n1)) at 2. apply Rmult_le_compat_l; [exact KN|].
    apply div_le_1; [apply Rmult_lt_0_compat; lra|apply Rmult_le_compat; lra]. }
  assert (k * n1 <= T * N / 2) as V2 by (destruct TT as [->| ->]; nra).
  assert (k * n1 * (N + 2) <= MR * (N + 2) * N) as V3 by (rewrite h2pe_MR_eq; nra).
  split; [unfold VAR, h2pe_var; apply div_ge_0; [exact DP|repeat apply Rmult_le_pos; lra]|]. split.
  - apply Rmult_le_reg_r with N; lra.
  - apply Rmult_le_reg_r with ((N + 2) * N); [apply Rmult_lt_0_compat; lra|].
    pose proof (Rmult_le_compat_r (N + 2) _ _ ltac:(lra) V1). lra.
Qed.
Lemma h2pe_S_sq : SD * SD = VAR /\ 0 <= SD.
Proof. split; [apply sqrt_sqrt, h2pe_VAR_bounds|apply sqrt_pos]. Qed.

(* region 1 stays inside the reduced support: x_l >= 0 and x_l + p1 = m + d + 1/2 < min(n1,k) + 1 *)
Lemma h2pe_xl_range : 0 <= M - D + / 2 <= M.
Proof.
  unfold D, h2pe_d. fold VAR SD. pose proof h2pe_S_sq as [SS S0]. pose proof h2pe_VAR_bounds as (_ & _ & VM).
  split; [|lra]. destruct (Rle_lt_dec (3 / 2 * SD) M) as [G|G]; [lra|]. exfalso. nra.
Qed.
Lemma h2pe_xr_lt : M + D + / 2 < T + 1.
Proof.
  unfold D, h2pe_d. fold VAR SD. pose proof h2pe_S_sq as [SS S0]. pose proof h2pe_VAR_bounds as (_ & VT & _).
  pose proof h2pe_T19 as [T19 MT].
  destruct (Rlt_le_dec (3 / 2 * SD) ((T - 1) / 2)) as [G|G]; [lra|]. exfalso. nra.
Qed.
(* the two log-ratios have the right sign: x_l <= m <= mode < m + 1 < x_r *)
Lemma h2pe_ratio_l x : 0 <= x <= M ->
  0 < (n1 - x + 1) * (k - x + 1) /\ x * (n2 - k + x) <= (n1 - x + 1) * (k - x + 1).
Proof.
  intros Hx. pose proof h2pe_T19 as [T19 MT]. destruct HT as (T1 & T2 & _). pose proof h2pe_MR_eq.
  split; [apply Rmult_lt_0_compat; lra|]. replace n2 with (N - n1) by lra. nra.
Qed.
Lemma h2pe_ratio_r x : M + 1 <= x ->
  0 < x * (n2 - k + x) /\ (n1 - x + 1) * (k - x + 1) <= x * (n2 - k + x).
Proof.
  intros Hx. pose proof h2pe_MR_eq.
  split; [apply Rmult_lt_0_compat; lra|]. replace n2 with (N - n1) by lra. nra.
Qed.

(* what `h2pe_branch_support` needs of the above, with x_l = M - D + 1/2 and x_r = M + D + 1/2 *)
Lemma h2pe_setup_facts :
  0 < (N - 1) * N * N /\ M <= T /\ 0 <= M - D + / 2 <= M /\ M + D + / 2 < T + 1 /\ / 2 <= D /\
  (let x := M - D + / 2 in 0 < (n1 - x + 1) * (k - x + 1) /\ x * (n2 - k + x) <= (n1 - x + 1) * (k - x + 1)) /\
  (let x := M + D + / 2 in 0 < x * (n2 - k + x) /\ (n1 - x + 1) * (k - x + 1) <= x * (n2 - k + x)).
Proof.
  pose proof h2pe_xl_range as XL. pose proof h2pe_T19.
  assert (/ 2 <= D) as D2 by (unfold D, h2pe_d; pose proof (sqrt_pos (h2pe_var N n1 n2 k)); lra).
  repeat split; try apply h2pe_den_pos; try apply h2pe_xr_lt; try apply h2pe_ratio_l; try apply h2pe_ratio_r; lra.
Qed.
End H2peSetupR.
Local Open Scope Z_scope.

Definition h2pe_branch (n n1 n2 k m : Z) : sampler Z :=
  let mf := zf m in
  let a := ln_of_factorial mf +. ln_of_factorial (zf n1 -. mf) +. ln_of_factorial (zf k -. mf)
           +. ln_of_factorial (zf (n2 - k) +. mf) in
  let numerator := zf (n - k) *. zf k *. zf n1 *. zf n2 in
  let denominator := zf (n - 1) *. zf n *. zf n in
  let d := Dy 3 (-1) *. esqrt (numerator /. denominator) +. half in
  let x_l := mf -. d +. half in
  let x_r := mf +. d +. half in
  let k_l := eexp (a -. ln_of_factorial x_l -. ln_of_factorial (zf n1 -. x_l)
                   -. ln_of_factorial (zf k -. x_l) -. ln_of_factorial (zf (n2 - k) +. x_l)) in
  let k_r := eexp (a -. ln_of_factorial (x_r -. one) -. ln_of_factorial (zf n1 -. x_r +. one)
                   -. ln_of_factorial (zf k -. x_r +. one) -. ln_of_factorial (zf (n2 - k) +. x_r -. one)) in
  let lambda_l := eneg (eln ((x_l *. (zf (n2 - k) +. x_l)) /. ((zf n1 -. x_l +. one) *. (zf k -. x_l +. one)))) in
  let lambda_r := eneg (eln (((zf n1 -. x_r +. one) *. (zf k -. x_r +. one)) /. (x_r *. (zf (n2 - k) +. x_r)))) in
  let p1 := num 2 *. d in
  let p2 := p1 +. k_l /. lambda_l in
  let p3 := p2 +. k_r /. lambda_r in
  h2pe_loop n1 n2 k m a lambda_l lambda_r x_l x_r p1 p2 p3 64.

Local Open Scope R_scope.
Lemma dy3h_eval : evalX (Dy 3 (-1)) = Xreal (3 / 2).
Proof. cbn [evalX]. rewrite xdy_real. f_equal. change (powerRZ 2 (-1)) with (/ (2 * 1)). lra. Qed.
Lemma h2pe_d_eval n n1 n2 k : 0 < (IZR n - 1) * IZR n * IZR n ->
  evalX (Dy 3 (-1) *. esqrt (zf (n - k) *. zf k *. zf n1 *. zf n2 /. (zf (n - 1) *. zf n *. zf n)) +. half)
  = Xreal (h2pe_d (IZR n) (IZR n1) (IZR n2) (IZR k)).
Proof.
  intros DP.
  assert (evalX (zf (n - k) *. zf k *. zf n1 *. zf n2 /. (zf (n - 1) *. zf n *. zf n))
          = Xreal (h2pe_var (IZR n) (IZR n1) (IZR n2) (IZR k))) as EV.
  { cbn [evalX xbin]. rewrite !zf_eval, !minus_IZR. apply Xdiv_nz. lra. }
  change (evalX (?a *. esqrt ?b +. ?c)) with (Xadd (Xmul (evalX a) (Xsqrt (evalX b))) (evalX c)).
  rewrite EV, half_eval, dy3h_eval. reflexivity.
Qed.

(* lambda = - ln (p / q) with p <= q *)
Lemma neg_ln_ratio_dnn p q P Q : evalX p = Xreal P -> evalX q = Xreal Q -> 0 < Q /\ P <= Q -> dnn (eneg (eln (p /. q))).
Proof.
  intros Ep Eqq [HQ HPQ] x Ex. apply neg_real in Ex. destruct Ex as (l & El & ->).
  apply ln_real in El. destruct El as (r & Er & Rp & ->).
  apply div_real in Er. destruct Er as (a & b & Ea & Eb & _ & ->).
  rewrite Ep in Ea. rewrite Eqq in Eb. injection Ea as <-. injection Eb as <-.
  assert (ln (P / Q) <= 0); [|lra]. rewrite <- ln_1. apply ln_le_iff; [exact Rp|lra|apply div_le_1; assumption].
Qed.
Lemma h2pe_lo_eval n2 k x X : evalX x = Xreal X -> evalX (x *. (zf (n2 - k) +. x)) = Xreal (X * (IZR n2 - IZR k + X)).
Proof. intros E. cbn [evalX xbin]. rewrite E, zf_eval, minus_IZR. reflexivity. Qed.
Lemma h2pe_hi_eval n1 k x X : evalX x = Xreal X ->
  evalX ((zf n1 -. x +. one) *. (zf k -. x +. one)) = Xreal ((IZR n1 - X + 1) * (IZR k - X + 1)).
Proof. intros E. cbn [evalX xbin]. rewrite E, !zf_eval, one_eval. reflexivity. Qed.

Theorem h2pe_branch_support n n1 n2 k m ws :
  (n1 + n2 = n)%Z -> (0 <= n1 <= n2)%Z -> (0 <= k)%Z -> (2 * k <= n)%Z -> (10 <= m)%Z ->
  IZR m <= (IZR k + 1) * (IZR n1 + 1) / (IZR n + 2) < IZR m + 1 -> Forall word ws ->
  allout (fun q => (0 <= fst q <= Z.min n1 k)%Z) nopanic (h2pe_branch n n1 n2 k m ws).
Proof.
  intros Hn Hn1 Hk0 Hk2 Hm10 Hm Hw. unfold h2pe_branch. cbv zeta.
  destruct (h2pe_setup_facts (IZR n) (IZR n1) (IZR n2) (IZR k) (IZR m) (IZR (Z.min n1 k)))
    as (DP & MT & XL & XR & D2 & RL & RR).
  { rewrite <- plus_IZR. f_equal. exact Hn. }
  { split; apply IZR_le; lia. }
  { split; [apply (IZR_le 0); lia|rewrite <- (mult_IZR 2); apply IZR_le; lia]. }
  { split; [apply IZR_le; lia|]. split; [apply IZR_le; lia|].
    destruct (Z.min_spec n1 k) as [[_ ->]|[_ ->]]; auto. }
  { exact Hm. }
  { apply (IZR_le 10), Hm10. }
  pose proof (h2pe_d_eval n n1 n2 k DP) as Ed.
  set (D := h2pe_d (IZR n) (IZR n1) (IZR n2) (IZR k)) in * .
  set (de := Dy 3 (-1) *. esqrt _ +. half) in * .
  pose proof (add_eval _ _ _ _ (sub_eval _ _ _ _ (zf_eval m) Ed) half_eval) as Exl.
  pose proof (add_eval _ _ _ _ (add_eval _ _ _ _ (zf_eval m) Ed) half_eval) as Exr.
  pose proof (mul_eval _ _ _ _ (num_eval 2) Ed) as Ep1.
  pose proof (neg_ln_ratio_dnn _ _ _ _ (h2pe_lo_eval n2 k _ _ Exl) (h2pe_hi_eval n1 k _ _ Exl) RL) as HLL.
  pose proof (neg_ln_ratio_dnn _ _ _ _ (h2pe_hi_eval n1 k _ _ Exr) (h2pe_lo_eval n2 k _ _ Exr) RR) as HLR.
  apply h2pe_loop_spec with (XL := IZR m - D + / 2) (XR := IZR m + D + / 2) (P1 := 2 * D); try assumption.
  - split; [lia|apply le_IZR, MT].
  - lia.
  - lra.
  - lra.
  - repeat apply dnn_add; [apply dpos_dnn, (dpos_real _ _ Ep1); lra| |];
      (apply dnn_div; [apply dpos_dnn, dpos_exp|assumption]).
Qed.
Local Open Scope Z_scope.

Definition hyper_core (n n1 n2 k sg off : Z) : sampler Z :=
  m <- sfloor ((zf k +. one) *. (zf n1 +. one) /. (zf n +. num 2)) ;;
  x <- (if m - Z.max 0 (k - n2) <? 10 then
          let '(p, x0) := if k <? n2 then (fraction_of_products_of_factorials n2 (n - k) n (n2 - k), 0)
                          else (fraction_of_products_of_factorials n1 k n (k - n2), k - n2) in
          u <- draw_std F64 ;;
          hin_loop (Z.to_nat (Z.min n1 k - x0) + 2) n1 n2 k u p x0
        else h2pe_branch n n1 n2 k m) ;;
  sret ((off + sg * x) mod 2 ^ 64).

Lemma hypergeometric_unfold N K ns :
  hypergeometric N K ns =
  if 2 ^ 51 <=? N then sfail 4 else
  let without := N - K in
  let '(sign_x, offset_x, n1, n2) :=
    if without <? K then (-1, ns, without, K) else (1, 0, K, without) in
  let '(k, offset_x, sign_x) :=
    if ns <=? N / 2 then (ns, offset_x, sign_x) else (N - ns, offset_x + n1 * sign_x, - sign_x) in
  hyper_core N n1 n2 k sign_x offset_x.
Proof. unfold hypergeometric, hyper_core, h2pe_branch. reflexivity. Qed.

(* on reduced parameters (n1 <= n2, 2k <= n) the lower end max(0, k - n2) of the support is 0; a reflection
   x -> off + sg * x maps [0, min(n1,k)] into [lo, hi] *)
Lemma hyper_core_support n n1 n2 k sg off lo hi ws :
  n1 + n2 = n -> 0 <= n1 <= n2 -> 0 <= k -> 2 * k <= n ->
  (forall x, Z.max 0 (k - n2) <= x <= Z.min n1 k -> lo <= off + sg * x <= hi) -> 0 <= lo -> hi < 2 ^ 64 ->
  Forall word ws ->
  allout (fun q => lo <= fst q <= hi) nopanic (hyper_core n n1 n2 k sg off ws).
Proof.
  intros Hn Hn1 Hk0 Hk2 Hmap Hlo Hhi Hw. unfold hyper_core.
  replace (Z.max 0 (k - n2)) with 0 in * by lia.
  unfold sfloor at 1. cbn [sbind bind allout]. intros mr Emr.
  apply div_real in Emr. destruct Emr as (p & q & Ep & Eqq & _ & ->).
  cbn [evalX xbin] in Ep, Eqq. rewrite !zf_eval, one_eval in Ep. rewrite zf_eval, num_eval in Eqq.
  injection Ep as <-. injection Eqq as <-.
  set (m := Zfloor _). rewrite Z.sub_0_r.
  apply allout_sbind with (P := fun q : Z * list Z => 0 <= fst q <= Z.min n1 k) (Q := nopanic).
  - destruct (Z.ltb_spec m 10) as [L|L].
    + (* HIN: k <= n2, and k - n2 = 0 when k = n2 *)
      assert (exists p, (if k <? n2 then (fraction_of_products_of_factorials n2 (n - k) n (n2 - k), 0)
                         else (fraction_of_products_of_factorials n1 k n (k - n2), k - n2)) = (p, 0)) as [p ->].
      { destruct (Z.ltb_spec k n2); [|replace (k - n2) with 0 by lia]; eauto. }
      eapply allout_mono; [| |apply (hin_one_word n1 n2 k p 0 ws); lia].
      * intros [x rest] [_ B]. exact B.
      * intros c [-> _]. exact nopanic1.
    + apply h2pe_branch_support; try assumption; try lia.
      split; [apply Zfloor_lb|apply Zfloor_ub].
  - auto.
  - intros x ws' Hx. cbn [fst] in Hx. lstep.
    pose proof (Hmap x ltac:(lia)) as Hr. rewrite Z.mod_small by lia. exact Hr.
Qed.

(* Hypergeometric(N, K, n) for K <= N, n <= N, N < 2^51 (larger populations are outside the model:
   failure code 4): the result lies in [max(0, n + K - N), min(n, K)] and no panic site is reachable -
   HIN and H2PE, all four combinations of the two symmetry reductions *)
Theorem hypergeometric_support N K ns ws : 0 <= K <= N -> 0 <= ns <= N -> Forall word ws ->
  allout (fun q => Z.max 0 (ns + K - N) <= fst q <= Z.min ns K) nopanic (hypergeometric N K ns ws).
Proof.
  intros HK Hns Hw. rewrite hypergeometric_unfold.
  destruct (Z.leb_spec (2 ^ 51) N) as [Big|Small]; [cbn; discriminate|].
  cbv zeta.
  assert (Hdiv : 2 * (N / 2) <= N < 2 * (N / 2) + 2).
  { pose proof (Z.div_mod N 2 ltac:(lia)). pose proof (Z.mod_pos_bound N 2 ltac:(lia)). lia. }
  destruct (Z.ltb_spec (N - K) K) as [L1|L1]; destruct (Z.leb_spec ns (N / 2)) as [L2|L2];
    apply hyper_core_support; try assumption; try lia.
Qed.
