(* Proofs/TreeBasics.v — arithmetic of the implicit heap layout ((i-1)/2 parent map),
   the ancestor relation, the pointwise effect of the ancestor walk, and the
   representation invariant Rep.  Stdlib only; axiom-free.                     *)
From Coq Require Import ZArith List Bool Lia.
From RD Require Import Model.Tree.
Import ListNotations.
Open Scope Z_scope.

Lemma length_upd l : forall i v, length (upd l i v) = length l.
Proof. induction l as [|x r IH]; intros [|i] v; simpl; auto. Qed.
Lemma nthz_upd_same l : forall i v, (i < length l)%nat -> nthz (upd l i v) i = v.
Proof. unfold nthz. induction l as [|x r IH]; intros [|i] v H; simpl in *; try lia; auto. apply IH; lia. Qed.
Lemma nthz_upd_other l : forall i j v, i <> j -> nthz (upd l i v) j = nthz l j.
Proof. unfold nthz. induction l as [|x r IH]; intros [|i] [|j] v H; simpl; auto; try lia. Qed.
Lemma upd_oob l : forall i v, (length l <= i)%nat -> upd l i v = l.
Proof. induction l as [|x r IH]; intros [|i] v H; simpl in *; auto; try lia. f_equal. apply IH. lia. Qed.
Lemma nthz_oob l i : (length l <= i)%nat -> nthz l i = 0.
Proof. unfold nthz. intros. now apply nth_overflow. Qed.

Lemma nthz_upd_add l i d j : (i < length l)%nat ->
  nthz (upd l i (nthz l i + d)) j = nthz l j + (if (j =? i)%nat then d else 0).
Proof. intros. destruct (Nat.eqb_spec j i) as [->|]; [rewrite nthz_upd_same|rewrite nthz_upd_other]; lia. Qed.

Lemma nthz_upd_all (P : Z -> Prop) l i v : (forall j, P (nthz l j)) -> P v -> forall j, P (nthz (upd l i v) j).
Proof. intros Hl Hv j. destruct (Nat.eq_dec i j) as [<-|]; [|now rewrite nthz_upd_other].
  destruct (Nat.ltb_spec i (length l)); [now rewrite nthz_upd_same|now rewrite upd_oob]. Qed.

Lemma nthz_snoc l x j : nthz (l ++ [x]) j = nthz l j + (if (j =? length l)%nat then x else 0).
Proof. unfold nthz. destruct (Nat.eqb_spec j (length l)) as [->|].
  - rewrite app_nth2, Nat.sub_diag, (nth_overflow l) by lia. reflexivity.
  - destruct (Nat.ltb_spec j (length l)); [rewrite app_nth1 by lia; lia|].
    rewrite !nth_overflow by (rewrite ?app_length; simpl; lia). reflexivity. Qed.

(* `sub` is `nthz`: both read 0 outside the vector *)
Lemma sub_nthz t i : sub t i = nthz t i.
Proof. unfold sub. destruct (Nat.ltb_spec i (length t)); [reflexivity|now rewrite nthz_oob]. Qed.
Lemma sub_out t i : (length t <= i)%nat -> sub t i = 0.
Proof. rewrite sub_nthz. apply nthz_oob. Qed.
Lemma sub_upd_same t i v : (i < length t)%nat -> sub (upd t i v) i = v.
Proof. rewrite sub_nthz. apply nthz_upd_same. Qed.
Lemma sub_upd_other t i j v : i <> j -> sub (upd t i v) j = sub t j.
Proof. rewrite !sub_nthz. apply nthz_upd_other. Qed.

Lemma par_lt i : (0 < i)%nat -> (par i < i)%nat.
Proof. unfold par. intros. apply Nat.div_lt_upper_bound; lia. Qed.
Lemma par_child i c : (0 < c)%nat -> (par c = i <-> c = (2*i+1)%nat \/ c = (2*i+2)%nat).
Proof. unfold par. intros Hc. pose proof (Nat.div_mod_eq (c-1) 2).
  pose proof (Nat.mod_upper_bound (c-1) 2 ltac:(lia)). lia. Qed.
Lemma par_l i : par (2*i+1) = i. Proof. apply par_child; lia. Qed.
Lemma par_r i : par (2*i+2) = i. Proof. apply par_child; lia. Qed.
Lemma par_inv c : (0 < c)%nat -> c = (2 * par c + 1)%nat \/ c = (2 * par c + 2)%nat.
Proof. intros. now apply par_child. Qed.

(* what is selected at the parent of c is selected at exactly one of i's children *)
Lemma par_child_sel i c d : (0 < c)%nat ->
  (if (i =? par c)%nat then d else 0) =
  (if (2*i+1 =? c)%nat then d else 0) + (if (2*i+2 =? c)%nat then d else 0).
Proof. intros Hc. pose proof (par_child i c Hc).
  destruct (Nat.eqb_spec i (par c)), (Nat.eqb_spec (2*i+1) c), (Nat.eqb_spec (2*i+2) c); lia. Qed.

(* children before parents, below n *)
Lemma heap_down_ind n (P : nat -> Prop) : (forall i, (n <= i)%nat -> P i) ->
  (forall i, (i < n)%nat -> P (2*i+1)%nat -> P (2*i+2)%nat -> P i) -> forall i, P i.
Proof. intros Hout Hin.
  assert (H : forall m i, (n - i <= m)%nat -> P i).
  { induction m as [|m IH]; intros i Hm; destruct (Nat.ltb_spec i n); auto; [lia|].
    apply Hin; [assumption|apply IH; lia..]. }
  intros i. apply (H n). lia. Qed.

(* parents before children, for the walks that start at i with fuel f >= i *)
Lemma walk_ind (P : nat -> nat -> Prop) : (forall f, P f 0%nat) ->
  (forall f i, (0 < i <= S f)%nat -> P f (par i) -> P (S f) i) -> forall f i, (i <= f)%nat -> P f i.
Proof. intros H0 HS. induction f as [|f IH]; intros i Hi;
    (destruct (Nat.eq_dec i 0) as [->|]; [apply H0|]); [lia|].
  apply HS; [lia|]. apply IH. pose proof (par_lt i). lia. Qed.

(* ancestor-or-self, decided with fuel *)
Fixpoint anc (fuel i j : nat) : bool :=
  (i =? j)%nat || match fuel with O => false | S f => match j with O => false | _ => anc f i (par j) end end.
(* strict ancestor *)
Definition sanc (fuel j i : nat) : bool := match i with O => false | _ => anc fuel j (par i) end.

Definition b2z (b : bool) : Z := if b then 1 else 0.

Lemma anc_unfold f j i : anc (S f) j i = ((j =? i)%nat || sanc f j i)%bool.
Proof. destruct i; reflexivity. Qed.
Lemma sanc_S f j i : (0 < i)%nat -> sanc f j i = anc f j (par i).
Proof. destruct i; [lia|reflexivity]. Qed.
Lemma anc_0 f i : anc f i 0 = (i =? 0)%nat.
Proof. destruct f; cbn [anc]; now rewrite orb_false_r. Qed.
Lemma anc_refl f k : anc f k k = true.
Proof. destruct f; simpl; now rewrite Nat.eqb_refl. Qed.

(* anc holds along the parent path only *)
Lemma anc_ind (P : nat -> nat -> Prop) : (forall k, P k k) ->
  (forall j k, (0 < k)%nat -> P j (par k) -> P j k) -> forall f j k, anc f j k = true -> P j k.
Proof.
  intros Hr Hs. induction f as [|f IH]; intros j k A.
  - cbn in A. rewrite orb_false_r in A. apply Nat.eqb_eq in A as ->. apply Hr.
  - rewrite anc_unfold in A. apply orb_true_iff in A as [->%Nat.eqb_eq|A]; [apply Hr|].
    destruct k; [discriminate|]. apply Hs; [lia|now apply IH].
Qed.

Lemma anc_le f c k : anc f c k = true -> (c <= k)%nat.
Proof. revert f c k. apply anc_ind; [lia|]. intros j k Hk. pose proof (par_lt k Hk). lia. Qed.
Lemma anc_gt f c k : (k < c)%nat -> anc f c k = false.
Proof. intros. destruct (anc f c k) eqn:A; [apply anc_le in A; lia|reflexivity]. Qed.
Lemma sanc_lt f j i : sanc f j i = true -> (j < i)%nat.
Proof. destruct i; [discriminate|]. rewrite sanc_S by lia. intros H%anc_le.
  pose proof (par_lt (S i) ltac:(lia)). lia. Qed.
Lemma sanc_anc f j i : sanc f j i = true -> anc (S f) j i = true.
Proof. intros H. rewrite anc_unfold, H. apply orb_true_r. Qed.
Lemma sanc_irrefl f i : sanc f i i = false.
Proof. destruct (sanc f i i) eqn:E; auto. apply sanc_lt in E. lia. Qed.

(* the two alternatives in `anc (S f)` exclude each other, so selections add *)
Lemma anc_S_sel f j k d : (if anc (S f) j k then d else 0) =
  (if (j =? k)%nat then d else 0) + (if sanc f j k then d else 0).
Proof. rewrite anc_unfold. destruct (Nat.eqb_spec j k) as [->|]; [rewrite sanc_irrefl|]; simpl; lia. Qed.

(* the path from k to the root passes through i iff it starts at i or passes through
   exactly one child of i *)
Lemma anc_split : forall f k i, (k <= f)%nat ->
  b2z (anc f i k) = b2z (i =? k)%nat + b2z (anc f (2*i+1) k) + b2z (anc f (2*i+2) k).
Proof.
  intros f k i Hk. revert f k Hk i. refine (walk_ind _ _ _).
  - intros f i. rewrite anc_0, !anc_gt by lia. simpl. lia.
  - intros f k Hk IH i. unfold b2z in *. rewrite !anc_S_sel, !sanc_S, IH, par_child_sel by lia. lia.
Qed.

Lemma anc_root : forall f k, (k <= f)%nat -> anc f 0 k = true.
Proof. apply walk_ind; [intros; apply anc_refl|]. intros f k Hk IH.
  rewrite anc_unfold, sanc_S, IH by lia. apply orb_true_r. Qed.

Lemma climb_0 f ty d t : climb f ty d t 0 = Ok t.
Proof. destruct f; reflexivity. Qed.
Lemma climb_S f ty d t i : (0 < i)%nat -> climb (S f) ty d t i =
  if inr ty (nthz t (par i) + d) then climb f ty d (upd t (par i) (nthz t (par i) + d)) (par i) else Panic.
Proof. destruct i; [lia|reflexivity]. Qed.

Lemma climb_spec : forall fuel ty d t i t', (i <= fuel)%nat -> (i <= length t)%nat ->
  climb fuel ty d t i = Ok t' ->
  length t' = length t /\ forall j, nthz t' j = nthz t j + (if sanc fuel j i then d else 0).
Proof.
  intros fuel ty d t i t' Hf. revert fuel i Hf t t'. refine (walk_ind _ _ _).
  - intros f t t' _ H. rewrite climb_0 in H. injection H as <-. split; [reflexivity|intro; simpl; lia].
  - intros f i Hi IH t t' Hl H. pose proof (par_lt i ltac:(lia)) as Hp. rewrite climb_S in H by lia.
    destruct (inr ty _); [|discriminate].
    apply IH in H as [HL HN]; [|rewrite length_upd; lia]. rewrite length_upd in HL. split; [exact HL|].
    intros j. rewrite HN, nthz_upd_add, (sanc_S (S f)), anc_S_sel by lia. lia.
Qed.

Lemma climb_not_err : forall fuel ty d t i e, climb fuel ty d t i <> Err e.
Proof. induction fuel as [|f IH]; intros ty d t i e; destruct i; simpl; try discriminate.
  destruct (inr ty _); [apply IH|discriminate]. Qed.

Lemma climb_ok : forall fuel ty d t i, (i <= fuel)%nat -> (i <= length t)%nat ->
  (forall j, sanc fuel j i = true -> inr ty (nthz t j + d) = true) ->
  exists t', climb fuel ty d t i = Ok t'.
Proof.
  intros fuel ty d t i Hf. revert fuel i Hf t. refine (walk_ind _ _ _).
  - intros f t _ _. rewrite climb_0. eauto.
  - intros f i Hi IH t Hl H. pose proof (par_lt i ltac:(lia)) as Hp.
    rewrite climb_S by lia. rewrite H by (rewrite sanc_S by lia; apply anc_refl).
    apply IH; [rewrite length_upd; lia|].
    intros j Hj. rewrite nthz_upd_other by (apply sanc_lt in Hj; lia).
    apply H. rewrite sanc_S by lia. now apply sanc_anc.
Qed.

Definition Rep (w t : list Z) : Prop :=
  length w = length t /\
  forall i, (i < length t)%nat -> nthz t i = nthz w i + sub t (2*i+1) + sub t (2*i+2).

Definition Nonneg (w : list Z) : Prop := forall i, 0 <= nthz w i.

(* the node equation holds at every index, since everything reads 0 outside *)
Lemma rep_iff w t : Rep w t <->
  length w = length t /\ forall i, nthz t i = nthz w i + nthz t (2*i+1) + nthz t (2*i+2).
Proof. split; intros [L R]; split; try exact L; intros i.
  - destruct (Nat.ltb_spec i (length t)) as [Hi|Hi]; [now rewrite (R i Hi), !sub_nthz|].
    now rewrite !nthz_oob by lia.
  - intros _. rewrite !sub_nthz. apply R.
Qed.

Lemma rep_sub w t : Rep w t -> forall i, sub t i = nthz w i + sub t (2*i+1) + sub t (2*i+2).
Proof. intros R i. rewrite !sub_nthz. now apply rep_iff. Qed.

Lemma rep_get w t i : Rep w t -> get t i = nthz w i.
Proof. intros R. unfold get. rewrite !sub_nthz, (proj2 (proj1 (rep_iff w t) R) i). lia. Qed.

Lemma rep_abs w t : Rep w t -> abs t = w.
Proof. intros R. pose proof R as [L _]. unfold abs.
  apply nth_ext with (get t 0%nat) 0; rewrite map_length, seq_length; [lia|].
  intros i Hi. rewrite map_nth, seq_nth by lia. apply (rep_get w t i R). Qed.

(* adding d to the weight at k and to every subtotal on the path k..root preserves Rep *)
Lemma rep_path f w t w' t' k d : Rep w t -> (k <= f)%nat -> length w' = length t' ->
  (forall j, nthz w' j = nthz w j + (if (j =? k)%nat then d else 0)) ->
  (forall j, nthz t' j = nthz t j + (if anc f j k then d else 0)) ->
  Rep w' t'.
Proof.
  intros [_ R]%rep_iff Hf L Hw Ht. apply rep_iff. split; [exact L|]. intros i.
  pose proof (anc_split f k i Hf) as SP. unfold b2z in SP. rewrite !Ht, Hw, (R i).
  destruct (i =? k)%nat, (anc f i k), (anc f (2*i+1) k), (anc f (2*i+2) k); lia.
Qed.

Theorem rep_unique : forall w t1 t2, Rep w t1 -> Rep w t2 -> t1 = t2.
Proof.
  intros w t1 t2 [L1 R1]%rep_iff [L2 R2]%rep_iff.
  assert (H : forall i, nthz t1 i = nthz t2 i).
  { apply (heap_down_ind (length t1)); intros i Hi; [now rewrite !nthz_oob by lia|].
    intros H1 H2. now rewrite R1, R2, H1, H2. }
  apply nth_ext with 0 0; [lia|]. intros i _. apply H.
Qed.

Lemma rep_sub_nonneg w t : Rep w t -> Nonneg w -> forall i, 0 <= sub t i.
Proof.
  intros R N. apply (heap_down_ind (length t)); intros i Hi; [rewrite sub_out by lia; lia|].
  rewrite (rep_sub w t R i). specialize (N i). lia.
Qed.

Lemma rep_child_le w t : Rep w t -> Nonneg w -> forall c, (0 < c)%nat -> sub t c <= sub t (par c).
Proof.
  intros R N c Hc. rewrite (rep_sub w t R (par c)). pose proof (N (par c)).
  pose proof (rep_sub_nonneg w t R N (2*par c+1)%nat). pose proof (rep_sub_nonneg w t R N (2*par c+2)%nat).
  destruct (par_inv c Hc) as [E|E]; rewrite <- E in *; lia.
Qed.

Lemma rep_anc_ge w t : Rep w t -> Nonneg w -> forall f j k, anc f j k = true -> sub t k <= sub t j.
Proof. intros R N. apply anc_ind; [lia|]. intros j k Hk. pose proof (rep_child_le w t R N k Hk). lia. Qed.

Fixpoint sumf (f : nat -> Z) (n : nat) : Z := match n with O => 0 | S m => sumf f m + f m end.

Lemma sumf_ext f g n : (forall i, (i < n)%nat -> f i = g i) -> sumf f n = sumf g n.
Proof. induction n; simpl; intros H; auto. rewrite IHn, H; auto. Qed.
Lemma sumf_add f g n : sumf (fun i => f i + g i) n = sumf f n + sumf g n.
Proof. induction n; simpl; lia. Qed.
Lemma sumf_zero_tail f n m : (n <= m)%nat -> (forall i, (n <= i)%nat -> f i = 0) -> sumf f m = sumf f n.
Proof. intros H Z. induction m; [assert (n = 0)%nat by lia; subst; auto|].
  destruct (Nat.eq_dec n (S m)); [subst; auto|]. simpl. rewrite Z by lia. rewrite IHm by lia. lia. Qed.
Lemma sumf_children g m : sumf (fun j => g (2*j+1)%nat + g (2*j+2)%nat) m = sumf g (2*m+1) - g 0%nat.
Proof. induction m; [simpl; lia|]. cbn [sumf]. rewrite IHm.
  replace (2 * S m + 1)%nat with (S (S (2*m+1))) by lia. cbn [sumf].
  replace (S (2*m+1)) with (2*m+2)%nat by lia. lia. Qed.

Lemma zsum_snoc l x : zsum (l ++ [x]) = zsum l + x.
Proof. unfold zsum. induction l; simpl; lia. Qed.
Lemma zsum_sumf l : zsum l = sumf (nthz l) (length l).
Proof. induction l as [|x r IH] using rev_ind; [reflexivity|].
  rewrite zsum_snoc, app_length, Nat.add_1_r, IH. cbn [sumf].
  rewrite (sumf_ext (nthz (r ++ [x])) (nthz r)) by (intros; rewrite nthz_snoc; destruct (Nat.eqb_spec i (length r)); lia).
  rewrite nthz_snoc, Nat.eqb_refl, nthz_oob by lia. lia. Qed.

Theorem rep_root_sum w t : Rep w t -> sub t 0 = zsum w.
Proof.
  (* sum the node equation over all i: every entry but the root is some node's child *)
  intros [L R]%rep_iff. rewrite sub_nthz, zsum_sumf, L.
  assert (E : sumf (nthz t) (length t) =
              sumf (nthz w) (length t) + (sumf (nthz t) (2*length t+1) - nthz t 0)).
  { rewrite <- sumf_children, <- sumf_add. apply sumf_ext. intros i _. rewrite (R i). lia. }
  rewrite (sumf_zero_tail (nthz t) (length t) (2*length t+1)) in E by (try lia; intros; apply nthz_oob; lia). lia.
Qed.

(* along the path from k to the root the subtotals grow from the weight at k to the total *)
Lemma rep_chain w t f j k : Rep w t -> Nonneg w -> anc f j k = true ->
  0 <= nthz w k <= nthz t j /\ nthz t j <= zsum w.
Proof.
  intros R N A. pose proof (N k). pose proof (rep_sub w t R k).
  pose proof (rep_sub_nonneg w t R N (2*k+1)%nat). pose proof (rep_sub_nonneg w t R N (2*k+2)%nat).
  pose proof (rep_anc_ge w t R N f j k A). pose proof (rep_anc_ge w t R N j 0%nat j (anc_root j j (le_n j))).
  rewrite (rep_root_sum w t R), !sub_nthz in *. lia.
Qed.
