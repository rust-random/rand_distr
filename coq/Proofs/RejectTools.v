(* Proofs/RejectTools.v — order facts about exp, ln and quotients of reals. *)
From Coq Require Import Reals Lra.
Open Scope R_scope.

Lemma exp_le_iff : forall a b, exp a <= exp b <-> a <= b.
Proof.
  intros a b. split; intros H.
  - apply Rnot_lt_le. intros L. apply exp_increasing in L. lra.
  - destruct H as [H | ->]; [left; apply exp_increasing, H | right; reflexivity].
Qed.

Lemma ln_le_exp : forall z e, 0 < z -> (ln z <= e <-> z <= exp e).
Proof. intros z e Hz. rewrite <- (exp_le_iff (ln z) e), exp_ln by exact Hz. reflexivity. Qed.

Lemma exp_le_ln : forall e z, 0 < z -> (exp e <= z <-> e <= ln z).
Proof. intros e z Hz. rewrite <- (exp_le_iff e (ln z)), exp_ln by exact Hz. reflexivity. Qed.

Lemma Rpower_pos : forall x y, 0 < Rpower x y.
Proof. intros. apply exp_pos. Qed.

Lemma ln_le_minus_1 : forall y, 0 < y -> ln y <= y - 1.
Proof. intros y Hy. apply ln_le_exp; [exact Hy |]. pose proof (exp_ineq1_le (y - 1)). lra. Qed.

Lemma Rle_div_iff : forall a b c, 0 < c -> (a <= b / c <-> a * c <= b).
Proof.
  intros a b c Hc. replace b with (b / c * c) at 2 by (field; lra).
  split; intros H; [apply Rmult_le_compat_r | apply Rmult_le_reg_r with c]; lra.
Qed.

Lemma Rdiv_le_iff : forall a b c, 0 < c -> (a / c <= b <-> a <= b * c).
Proof.
  intros a b c Hc. replace a with (a / c * c) at 2 by (field; lra).
  split; intros H; [apply Rmult_le_compat_r | apply Rmult_le_reg_r with c]; lra.
Qed.

Lemma Rlt_div_iff : forall a b c, 0 < c -> (a / c < b <-> a < b * c).
Proof.
  intros a b c Hc. replace a with (a / c * c) at 2 by (field; lra).
  split; intros H; [apply Rmult_lt_compat_r | apply Rmult_lt_reg_r with c]; lra.
Qed.
