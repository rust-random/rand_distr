(* Proofs/ConsumptionDiscrete.v — property C05 on the executable models of the two paper-grade rejection
   samplers: every iteration of the BTPE and H2PE loops reads exactly two words and nothing else does
   (region selection, step 5 / step 4 and the product loops read none), so a sample that needed j
   proposals consumed exactly 2 j words - for every word list and all parameters (no hypothesis).     *)
From Coq Require Import ZArith List Lia.
From RD Require Import Model.Sampler Model.Discrete Proofs.LoopBounds.
Open Scope Z_scope.
Open Scope sampler_scope.

Definition two_per_iter (fuel : nat) (ws : list Z) (q : Z * list Z) : Prop :=
  exists j : nat, (1 <= j <= fuel)%nat /\ length ws = (length (snd q) + 2 * j)%nat.

Lemma two_per_iter_S fuel w1 w2 ws q : two_per_iter fuel ws q -> two_per_iter (S fuel) (w1 :: w2 :: ws) q.
Proof. intros (j & Hj & E). exists (S j). split; [lia|]. cbn [length]. lia. Qed.
Lemma two_per_iter_here fuel w1 w2 ws x : two_per_iter (S fuel) (w1 :: w2 :: ws) (x, ws).
Proof. exists 1%nat. split; [lia|]. cbn [length snd]. lia. Qed.

Definition anyfail (c : Z) : Prop := True.

(* `stays P ws m`: run on the word list ws, m returns only pairs in P (whatever its failures);
   `keeps m`: m hands the word list on untouched.  Only `next_word` fails to keep it: the lemmas below say so for the other
   combinators, and `auto with stays` walks a sampler with them. *)
Definition stays {A} (P : A * list Z -> Prop) (ws : list Z) (m : sampler A) : Prop := allout P anyfail (m ws).
Definition keeps {A} (m : sampler A) : Prop := forall ws, stays (fun q => snd q = ws) ws m.

Lemma stays_sret {A} (P : A * list Z -> Prop) ws a : P (a, ws) -> stays P ws (sret a).
Proof. exact (fun H => H). Qed.
Lemma stays_sfail {A} (P : A * list Z -> Prop) ws c : stays P ws (sfail c).
Proof. exact I. Qed.
Lemma stays_bind {A B} (P : B * list Z -> Prop) ws (m : sampler A) k :
  keeps m -> (forall a, stays P ws (k a)) -> stays P ws (sbind m k).
Proof. intros Hm Hk. eapply allout_sbind; [apply Hm|auto|]. intros a ws' E. cbn [snd] in E. subst ws'. apply Hk. Qed.
Lemma stays_if {A} (P : A * list Z -> Prop) ws (b : bool) m1 m2 :
  stays P ws m1 -> stays P ws m2 -> stays P ws (if b then m1 else m2).
Proof. destruct b; auto. Qed.
Lemma stays_option {A B} (P : A * list Z -> Prop) ws (o : option B) f g :
  (forall y, stays P ws (f y)) -> stays P ws g -> stays P ws (match o with Some y => f y | None => g end).
Proof. destruct o; auto. Qed.
Lemma stays_keeps {A} (P : A * list Z -> Prop) ws m : keeps m -> (forall a, P (a, ws)) -> stays P ws m.
Proof. intros Hm HP. eapply allout_mono; [| |apply Hm]; [|auto]. intros [a ws'] E. cbn [snd] in E. subst ws'. apply HP. Qed.
Lemma keeps_sask c a b : keeps (sask c a b).
Proof. intros ws x y _ _. reflexivity. Qed.
Lemma keeps_sfloor e : keeps (sfloor e).
Proof. intros ws x _. reflexivity. Qed.

Lemma stays_two_words {A} (P : A * list Z -> Prop) (k : Z -> Z -> sampler A) w1 w2 ws :
  stays P ws (k w1 w2) -> allout P anyfail ((a <- next_word ;; b <- next_word ;; k a b) (w1 :: w2 :: ws)).
Proof. exact (fun H => H). Qed.

Create HintDb stays.
#[local] Hint Unfold keeps : stays.
#[local] Hint Resolve stays_sret stays_sfail stays_bind stays_if stays_option keeps_sask keeps_sfloor : stays.
#[local] Hint Resolve stays_keeps | 9 : stays.

Lemma f64_to_u64_nowords e : keeps (f64_to_u64 e).
Proof. unfold f64_to_u64. auto with stays. Qed.

Lemma btpe_step5_nowords n pe m x_m y v : keeps (btpe_step5 n pe m x_m y v).
Proof. unfold btpe_step5. cbv zeta. auto 20 with stays. Qed.

#[local] Hint Resolve f64_to_u64_nowords btpe_step5_nowords two_per_iter_here : stays.

Lemma btpe_loop_words n pe fuel : forall m p1 x_m x_l x_r c p2 lambda_l lambda_r p3 p4 ws,
  allout (two_per_iter fuel ws) anyfail (btpe_loop n pe fuel m p1 x_m x_l x_r c p2 lambda_l lambda_r p3 p4 ws).
Proof.
  induction fuel as [|fu IH]; intros m p1 x_m x_l x_r c p2 lambda_l lambda_r p3 p4 ws; [exact I|].
  destruct ws as [|w1 [|w2 ws]]; [exact I|exact I|].
  assert (Again : stays (two_per_iter (S fu) (w1 :: w2 :: ws)) ws
                    (btpe_loop n pe fu m p1 x_m x_l x_r c p2 lambda_l lambda_r p3 p4)).
  { eapply allout_mono; [| |apply IH]; [|auto]. intros q. apply two_per_iter_S. }
  cbn [btpe_loop]. cbv zeta. apply stays_two_words. auto 20 with stays.
Qed.

Lemma h2pe_f41_nowords n1 n2 k m y : keeps (h2pe_f41 n1 n2 k m y).
Proof.
  intros ws. unfold h2pe_f41. eapply allout_mono; [| |destruct (m <? y); [apply h2pe_up_spec|apply h2pe_down_spec]]; auto.
  intros c _. exact I.
Qed.
#[local] Hint Resolve h2pe_f41_nowords : stays.

Lemma h2pe_step4_nowords n1 n2 k m a y v vz : keeps (h2pe_step4 n1 n2 k m a y v vz).
Proof. unfold h2pe_step4, sneg. cbv zeta. auto 30 with stays. Qed.
#[local] Hint Resolve h2pe_step4_nowords : stays.

Lemma h2pe_loop_words n1 n2 k m a lambda_l lambda_r x_l x_r p1 p2 p3 fuel : forall ws,
  allout (two_per_iter fuel ws) anyfail (h2pe_loop n1 n2 k m a lambda_l lambda_r x_l x_r p1 p2 p3 fuel ws).
Proof.
  induction fuel as [|fu IH]; intros ws; [exact I|].
  destruct ws as [|w1 [|w2 ws]]; [exact I|exact I|].
  assert (Again : stays (two_per_iter (S fu) (w1 :: w2 :: ws)) ws
                    (h2pe_loop n1 n2 k m a lambda_l lambda_r x_l x_r p1 p2 p3 fu)).
  { eapply allout_mono; [| |apply IH]; [|auto]. intros q. apply two_per_iter_S. }
  cbn [h2pe_loop]. cbv zeta. apply stays_two_words. auto 20 with stays.
Qed.
