(* Proofs/GuardProofs7.v — C04, part 7: Zipf::new.  libm `powf` and `ln` are parameters with an
   explicit contract; under it `debug_assert!(t > 0)` cannot fail.                              *)
From Coq Require Import ZArith List Bool String Reals Lra Lia.
From Flocq Require Import Core.Core IEEE754.Binary IEEE754.Bits IEEE754.BinarySingleNaN.
From RD Require Import Model.Guards Model.GuardSpec Proofs.GuardLemmas Proofs.AffineFl Proofs.GuardArith Proofs.GuardProofs3.
Import ListNotations.
Open Scope R_scope.

Section Fmt.
Variable prec emax : Z.
Context (Hp : Prec_gt_0 prec) (Hpe : Prec_lt_emax prec emax).
Notation float := (binary_float prec emax).
Notation one := (one prec emax Hp Hpe).
Notation zero := (zero prec emax).
Notation pinf := (pinf prec emax).
Notation fmul := (fmul prec emax Hp Hpe).
Notation fdiv := (fdiv prec emax Hp Hpe).
Notation fsub := (fsub prec emax Hp Hpe).
Notation fgt := (fgt prec emax).
Notation fge := (fge prec emax).
Notation fle := (fle prec emax).
Notation feq := (feq prec emax).
Notation fne := (fne prec emax).
Notation M := (M emax).
Notation ext := (ext prec emax).
Notation rnd := (rnd prec emax).
Notation clamp := (clamp emax).

Hypothesis prec_ge_3 : (3 <= prec)%Z.

Lemma rnd_half : rnd (/ 2) = / 2.
Proof.
  replace (/ 2) with (bpow radix2 (-1)) by (simpl; lra).
  apply (rnd_bpow prec emax Hp). unfold Prec_lt_emax in Hpe. lia.
Qed.

Lemma clamp_ge (a v : R) : a <= v -> a <= M -> a <= clamp v.
Proof.
  intros. pose proof (M_gt_1 prec emax Hp Hpe).
  destruct (clamp_spec prec emax Hp Hpe v) as [[]|[[]|[]]]; lra.
Qed.
Lemma clamp_le (a v : R) : v <= a -> - M <= a -> clamp v <= a.
Proof.
  intros. pose proof (M_gt_1 prec emax Hp Hpe).
  destruct (clamp_spec prec emax Hp Hpe v) as [[]|[[]|[]]]; lra.
Qed.

Lemma finite_neg_struct (x : float) :
  is_finite x = true -> B2R x < 0 -> exists m e H, x = B754_finite true m e H.
Proof.
  intros F P. pose proof (B2R_neg_sign _ _ x P) as S.
  destruct x as [|?| |s m e H]; try discriminate; simpl in *; try lra. subst s. eauto.
Qed.

(* u >= D > 0 and q >= 1 (either possibly +inf): u * q > 0 *)
Lemma mul_pos_lb (u q d : float) :
  is_nan u = false -> is_nan q = false -> is_finite d = true -> 0 < B2R d ->
  B2R d <= ext u -> 1 <= ext q -> fgt (fmul u q) zero = true.
Proof.
  intros Nu Nq Fd Pd Lu Lq. pose proof (M_gt_1 prec emax Hp Hpe) as HM.
  destruct (nonnan_cases _ _ u Nu) as [Fu|[-> | ->]]; destruct (nonnan_cases _ _ q Nq) as [Fq|[-> | ->]];
  try (unfold GuardSpec.ext in *; lra).
  - rewrite ext_finite in Lu, Lq by trivial.
    destruct (Bmult_ext prec emax Hp Hpe u q Fu Fq) as (N & E).
    apply (fgt_zero_ext prec emax Hp Hpe); trivial. rewrite E. apply (clamp_pos prec emax Hp Hpe).
    assert (B2R d <= rnd (B2R u * B2R q)) by (apply rnd_ge_B2R; trivial; nra). lra.
  - rewrite ext_finite in Lu by trivial.
    destruct (finite_pos_struct _ _ u Fu) as (m & e & H & ->). lra. reflexivity.
  - rewrite ext_finite in Lq by trivial.
    destruct (finite_pos_struct _ _ q Fq) as (m & e & H & ->). lra. reflexivity.
  - reflexivity.
Qed.

(* d = 1 - s for a finite s >= 0: finite, in [-s, 1], and of the sign of the exact difference *)
Lemma one_minus (s : float) :
  is_finite s = true -> 0 <= B2R s ->
  is_finite (fsub one s) = true /\ B2R (fsub one s) = rnd (1 - B2R s) /\
  - B2R s <= B2R (fsub one s) <= 1 /\
  (B2R s < 1 -> 0 < B2R (fsub one s)) /\ (1 < B2R s -> B2R (fsub one s) < 0).
Proof.
  intros Fs Ps. pose proof (finite_bound _ _ s Fs) as Bs. pose proof (M_gt_1 prec emax Hp Hpe) as HM.
  pose proof (one_B2R prec emax Hp Hpe) as V1.
  destruct (fin_between prec emax Hp Hpe (fsub one s) _ (- B2R s) 1
              (Bminus_ext prec emax Hp Hpe one s (one_fin _ _ _ _) Fs)) as (Fd & Vd & Bd); try lra.
  { rewrite rnd_opp. f_equal. apply rnd_B2R. }
  { exact (rnd_1 prec emax Hp Hpe). }
  repeat split; trivial; try lra; rewrite Vd; [now rewrite V1| |]; intros L.
  - apply rnd_minus_pos; trivial. lra.
  - replace (B2R one - B2R s) with (- (B2R s - B2R one)) by ring. rewrite rnd_opp.
    assert (0 < rnd (B2R s - B2R one)) by (apply rnd_minus_pos; trivial; lra). lra.
Qed.

Lemma Zipf_core_lt1 (pwv s : float) :
  is_finite s = true -> 0 <= B2R s < 1 -> is_nan pwv = false -> 1 <= ext pwv ->
  fgt (fmul (fsub pwv s) (fdiv one (fsub one s))) zero = true.
Proof.
  intros Fs (Ls & Us) Np Lp. pose proof (M_gt_1 prec emax Hp Hpe) as HM.
  pose proof (finite_bound _ _ s Fs) as Bs.
  set (d := fsub one s).
  destruct (one_minus s Fs Ls) as (Fd & Vd & (_ & Ud) & Pd & _). fold d in Fd, Vd, Ud, Pd. specialize (Pd Us).
  (* q >= 1 *)
  destruct (Bdiv_ext prec emax Hp Hpe one d (one_fin _ _ _ _) Fd) as (Nq & Eq). lra.
  rewrite (one_B2R prec emax Hp Hpe) in Eq.
  assert (Lq : 1 <= ext (fdiv one d)).
  { rewrite Eq. apply (clamp_ge1 prec emax Hp Hpe). apply (rnd_ge1 prec emax Hp Hpe).
    rewrite <- Rinv_1 at 1. unfold Rdiv. rewrite Rmult_1_l. apply Rinv_le_contravar; lra. }
  (* u >= D *)
  assert (Hu : is_nan (fsub pwv s) = false /\ B2R d <= ext (fsub pwv s)).
  { destruct (nonnan_cases _ _ pwv Np) as [Fp|[-> | ->]].
    - rewrite ext_finite in Lp by trivial.
      destruct (Bminus_ext prec emax Hp Hpe pwv s Fp Fs) as (Nu & Eu). split; trivial.
      rewrite Eu, Vd. apply clamp_ge. apply rnd_mono; trivial; lra. lra.
    - split. destruct s; try discriminate; reflexivity.
      replace (fsub (B754_infinity false) s) with (B754_infinity false : float)
        by (destruct s; try discriminate; reflexivity).
      unfold GuardSpec.ext. lra.
    - unfold GuardSpec.ext in Lp. lra. }
  destruct Hu as (Nu & Lu).
  now apply (mul_pos_lb _ _ d).
Qed.

(* the reciprocal of a finite d < 0 is -inf or a finite float at most 1/(2d): rounding to nearest
   loses at most a factor 2 *)
Lemma inv_neg_cases (d : float) :
  is_finite d = true -> B2R d < 0 ->
  fdiv one d = B754_infinity true \/
  (is_finite (fdiv one d) = true /\ B2R (fdiv one d) <= / B2R d / 2).
Proof.
  intros Fd Nd. pose proof (M_gt_1 prec emax Hp Hpe) as HM. pose proof (finite_bound _ _ d Fd) as Bd.
  destruct (Bdiv_ext prec emax Hp Hpe one d (one_fin _ _ _ _) Fd) as (Nq & Eq). lra.
  rewrite (one_B2R prec emax Hp Hpe) in Eq.
  set (x := / - B2R d).
  assert (Px : 0 < x) by (apply Rinv_0_lt_compat; lra).
  assert (Ex : 1 / B2R d = - x) by (unfold x; field; lra).
  assert (Hx : x / 2 <= rnd x).
  { apply (rnd_ge_half prec emax Hp prec_ge_3). unfold x. apply Rinv_le_contravar; lra. }
  rewrite Ex, rnd_opp in Eq. replace (/ B2R d) with (- x) by (unfold x; field; lra).
  destruct (nonnan_cases _ _ _ Nq) as [Fq|[Eq'|Eq']]; [right|exfalso|now left].
  - pose proof (finite_bound _ _ _ Fq). rewrite ext_finite in Eq by trivial. split; trivial.
    destruct (clamp_spec prec emax Hp Hpe (- rnd x)) as [[]|[[]|[]]]; lra.
  - rewrite Eq' in Eq. unfold GuardSpec.ext in Eq.
    destruct (clamp_spec prec emax Hp Hpe (- rnd x)) as [[]|[[]|[]]]; lra.
Qed.

(* u <= D < 0 and q <= 1/(2D) < 0 (possibly -inf): u * q >= 1/2 *)
Lemma Zipf_core_gt1 (pwv s : float) :
  is_finite s = true -> 1 < B2R s -> is_nan pwv = false -> 0 <= ext pwv <= 1 ->
  fgt (fmul (fsub pwv s) (fdiv one (fsub one s))) zero = true.
Proof.
  intros Fs Ls Np (Lp & Up). pose proof (M_gt_1 prec emax Hp Hpe) as HM.
  pose proof (finite_bound _ _ s Fs) as Bs.
  assert (Fp : is_finite pwv = true) by (apply (is_finite_of_ext prec emax); trivial; lra).
  rewrite ext_finite in Lp, Up by trivial.
  set (d := fsub one s).
  destruct (one_minus s Fs) as (Fd & Vd & (Ld & _) & _ & Pd). lra. fold d in Fd, Vd, Ld, Pd. specialize (Pd Ls).
  (* u in [-S, D] *)
  set (u := fsub pwv s).
  destruct (Bminus_ext prec emax Hp Hpe pwv s Fp Fs) as (Nu & Eu). fold u in Nu, Eu.
  assert (Bu : - B2R s <= rnd (B2R pwv - B2R s) <= B2R d).
  { split. rewrite <- B2R_Bopp. apply rnd_ge_B2R; trivial. rewrite B2R_Bopp. lra.
    rewrite Vd. apply rnd_mono; trivial. lra. }
  destruct (ext_clamp_finite prec emax Hp Hpe u _ Nu Eu) as (Fu & Vu). apply Rabs_lt; lra.
  destruct (inv_neg_cases d Fd Pd) as [-> | (Fq & Bq)].
  - destruct (finite_neg_struct u Fu) as (mu & eu & Hu & ->). lra. reflexivity.
  - destruct (Bmult_ext prec emax Hp Hpe u _ Fu Fq) as (N & E).
    apply (fgt_zero_ext prec emax Hp Hpe); trivial. rewrite E. apply (clamp_pos prec emax Hp Hpe).
    assert (/ 2 <= rnd (B2R u * B2R (fdiv one d))).
    { rewrite <- rnd_half. apply rnd_mono; trivial.
      assert (/ B2R d * B2R d = 1) by (field; lra).
      assert (/ B2R d < 0) by (apply Rinv_lt_0_compat; lra).
      assert (- B2R d * - (/ B2R d / 2) <= - B2R u * - B2R (fdiv one d)) by (apply Rmult_le_compat; lra).
      lra. }
    lra.
Qed.

Section Zipf.
Variable powf_f : float -> float -> float.
Variable ln_f : float -> float.
Notation ge1 := (ge1 prec emax).
(* CONTRACT on libm powf and ln (what the proof uses, nothing else):
   for a base x >= 1 (possibly +inf) and a finite exponent y:
     y > 0  ==>  powf(x, y) is not NaN and >= 1 (possibly +inf);
     y < 0  ==>  powf(x, y) is not NaN and lies in [0, 1];
   for finite x >= 1: ln(x) is not NaN and >= 0 (possibly -0).                                   *)
Hypothesis pow_pos : forall x y, ge1 x -> is_finite y = true -> 0 < B2R y ->
                     is_nan (powf_f x y) = false /\ 1 <= ext (powf_f x y).
Hypothesis pow_neg : forall x y, ge1 x -> is_finite y = true -> B2R y < 0 ->
                     is_nan (powf_f x y) = false /\ 0 <= ext (powf_f x y) <= 1.
Hypothesis ln_ge1 : forall x, is_finite x = true -> 1 <= B2R x ->
                    is_nan (ln_f x) = false /\ 0 <= ext (ln_f x).

Notation Zipf_t := (Zipf_t prec emax Hp Hpe powf_f ln_f).

Lemma Zipf_t_pos (n s : float) :
  ge1 n -> is_finite s = true -> 0 <= B2R s ->
  (is_finite n = true \/ 1 < B2R s) ->
  fgt (Zipf_t n s) zero = true.
Proof.
  intros Gn Fs Ps Hn. pose proof (M_gt_1 prec emax Hp Hpe) as HM.
  pose proof (finite_bound _ _ s Fs) as Bs.
  unfold Guards.Zipf_t.
  replace (feq s pinf) with false by (destruct s; try discriminate; reflexivity).
  assert (Eone : feq s one = true <-> B2R s = 1).
  { unfold Guards.feq. rewrite fcmp_finite by (trivial; apply one_fin). rewrite (one_B2R prec emax Hp Hpe).
    destruct (Rcompare_spec (B2R s) 1); split; intros; try discriminate; try lra; trivial. }
  unfold Guards.fne. destruct (Req_dec (B2R s) 1) as [E1|E1].
  - (* s == 1: t = 1 + ln n, n finite *)
    rewrite (proj2 Eone E1). simpl negb. cbv iota.
    destruct Hn as [Fn|Hn]; [|lra].
    destruct Gn as [(_ & Ln) | ->]; [|discriminate].
    destruct (ln_ge1 n Fn Ln) as (Nl & Ll).
    apply one_plus_nn. split; trivial.
  - assert (X : feq s one = false).
    { destruct (feq s one); trivial. exfalso. apply E1. now apply Eone. }
    rewrite X. simpl negb. cbv iota.
    destruct (one_minus s Fs Ps) as (Fd & _ & _ & Pd & Nd).
    destruct (Rlt_or_le (B2R s) 1) as [L|L].
    + destruct (pow_pos n (fsub one s) Gn Fd (Pd L)) as (Np & Lp).
      apply Zipf_core_lt1; trivial. lra.
    + assert (L' : 1 < B2R s) by lra.
      destruct (pow_neg n (fsub one s) Gn Fd (Nd L')) as (Np & Lp).
      now apply Zipf_core_gt1.
Qed.

(* past the three tests, t > 0 *)
Lemma Zipf_assert (n s : float) :
  fge s zero = true -> fge n one = true -> f_is_infinite prec emax n && fle s one = false ->
  fgt (Zipf_t n s) zero = true.
Proof.
  intros G1 G2 G3.
  assert (Gn : ge1 n).
  { destruct (fge_fin_cases _ _ n one (one_fin _ _ _ _) G2) as [(F & L) | ->]; [left|now right].
    now rewrite (one_B2R prec emax Hp Hpe) in L. }
  destruct (fge_fin_cases _ _ s zero eq_refl G1) as [(Fs & Ps) | ->].
  - apply Zipf_t_pos; trivial.
    destruct Gn as [(Fn & _) | ->]; [now left|right].
    destruct (Rlt_or_le 1 (B2R s)) as [L|L]; trivial.
    rewrite <- (one_B2R prec emax Hp Hpe) in L. apply fle_finite in L; trivial; [|apply one_fin].
    rewrite L in G3. discriminate G3.
  - (* s = +inf: t = 1 *)
    apply fgt_one_zero.
Qed.

(* `debug_assert!(t > 0)` never fails; the errors are the documented ones *)
Theorem Zipf_new_sound (debug : bool) (n s : float) :
  agrees (Zipf_new_gen prec emax Hp Hpe debug powf_f ln_f n s) (spec_Zipf_new prec emax Hp Hpe n s).
Proof.
  unfold Zipf_new_gen, spec_Zipf_new.
  pose proof (not_v_le _ _ zero s) as T1. pose proof (not_v_le _ _ one n) as T2.
  rewrite <- fge_le in T1, T2. rewrite (v_nan_one prec emax Hp Hpe) in T2. rewrite T1, T2.
  destruct (v_lt _ _ s zero); [apply agrees_err; reflexivity|].
  destruct (v_nan _ _ s); [apply agrees_err; reflexivity|].
  destruct (v_lt _ _ n one); [apply agrees_err; reflexivity|].
  destruct (v_nan _ _ n); [apply agrees_err; reflexivity|].
  apply negb_false_iff in T1, T2.
  (* n >= 1 is not -inf *)
  assert (E : f_is_infinite prec emax n = v_pinf prec emax n).
  { destruct (one_struct prec emax Hp Hpe) as (m1 & e1 & H1 & E1). rewrite E1 in T2.
    now destruct n as [|[|]| |]. }
  pose proof (Zipf_assert n s T1 T2) as A. rewrite E, fle_le in *.
  destruct (v_pinf _ _ n && v_le _ _ s one); [apply agrees_err; reflexivity|].
  rewrite A, andb_false_r by trivial. now apply agrees_ok.
Qed.
End Zipf.

End Fmt.
