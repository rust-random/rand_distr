(* Proofs/LoopBoundsFloat.v — property C05 for the only parameter-dependent loop that runs in a
   constructor: Geometric::new (geometric.rs:84-94)

       let mut k = 1;  pi = pi * pi;  while pi > 0.5 { k += 1; pi = pi * pi; }

   on IEEE binary64 (Flocq BinarySingleNaN, round to nearest even), started from pi0 = fl(1 - p)
   with 0 <= pi0 < 1.  Results:
   - squaring a float of (1/2, 1) strictly decreases it (by at least one ulp) and stays >= 1/4;
   - the loop terminates with k <= 53 (tight: pi0 = 1 - 2^-53 needs k = 53), so the model's fuel 64
     and the `1 << k` of the sampler (k < 64) are safe;
   - exact arithmetic: x^(2^j) <= 1/2 for real 0 <= x <= 1 - 2^-j.

   The bound on k: every float of [1/2, 1] is m * 2^-53 with an integer 2^52 <= m <= 2^53.  If
   x <= M * 2^-53 then fl(x*x) <= H(M) * 2^-53 with H(M) = max(floor((M^2 + 2^52) / 2^53), 2^52)
   (the least mantissa m' whose upper midpoint (2m'+1) * 2^-54 exceeds M^2 * 2^-106).  Iterating H
   from 2^53 - 1 reaches 2^52 (the value 1/2) after 53 steps: a computation in Z.              *)
From Coq Require Import Reals ZArith Lra Lia.
From Flocq Require Import Core.Core IEEE754.BinarySingleNaN.
From RD Require Proofs.FloatWeightsOps.
Open Scope R_scope.

Definition Hp53 : Prec_gt_0 53 := eq_refl.
Definition Hpe53 : Prec_lt_emax 53 1024 := eq_refl.
#[local] Existing Instance Hp53.
#[local] Existing Instance Hpe53.

Notation fexp64 := (FLT_exp (3 - 1024 - 53) 53).
Notation float64 := (binary_float 53 1024).
Notation Fmt64 := (generic_format radix2 fexp64).
Definition rnd64 (x : R) : R := round radix2 fexp64 ZnearestE x.
Definition B53 : R := bpow radix2 (-53).
Definition X (m : Z) : R := IZR m * B53.

Lemma B53_pos : 0 < B53. Proof. apply bpow_gt_0. Qed.
Lemma X_pow2 e : (0 <= e)%Z -> X (2 ^ e) = bpow radix2 (e - 53).
Proof.
  intros H. unfold X, B53. change (2 ^ e)%Z with (Zpower radix2 e).
  rewrite IZR_Zpower, <- bpow_plus by exact H. reflexivity.
Qed.
Lemma X_half : X (2 ^ 52) = / 2. Proof. apply (X_pow2 52). discriminate. Qed.
Lemma X_one : X (2 ^ 53) = 1. Proof. apply (X_pow2 53). discriminate. Qed.
Lemma X_le a b : (a <= b)%Z -> X a <= X b.
Proof. intros H. unfold X. apply Rmult_le_compat_r; [apply Rlt_le, B53_pos|now apply IZR_le]. Qed.
Lemma X_lt a b : (a < b)%Z -> X a < X b.
Proof. intros H. unfold X. apply Rmult_lt_compat_r; [apply B53_pos|now apply IZR_lt]. Qed.
Lemma X_range m : (2 ^ 52 <= m < 2 ^ 53)%Z -> / 2 <= X m < 1.
Proof. intros H. rewrite <- X_half, <- X_one. split; [apply X_le | apply X_lt]; apply H. Qed.

Lemma fexp64_valid : Valid_exp fexp64. Proof. apply FLT_exp_valid. exact Hp53. Qed.
Lemma NE_valid : Valid_rnd ZnearestE. Proof. apply valid_rnd_N. Qed.
#[local] Existing Instance fexp64_valid.
Ltac tc := try exact fexp64_valid; try exact NE_valid.

Lemma fexp64_0 : fexp64 0 = (-53)%Z. Proof. reflexivity. Qed.

Lemma mag_half_one x : / 2 <= x < 1 -> mag radix2 x = 0%Z :> Z.
Proof.
  intros H. apply mag_unique. rewrite Rabs_pos_eq by lra.
  change (bpow radix2 (0 - 1)) with (/ 2). change (bpow radix2 0) with 1. exact H.
Qed.
Lemma ulp_half_one x : / 2 <= x < 1 -> ulp radix2 fexp64 x = B53.
Proof.
  intros H. rewrite ulp_neq_0 by lra. unfold cexp. rewrite (mag_half_one x H). reflexivity.
Qed.

Lemma X_format m : (0 <= m < 2 ^ 53)%Z -> Fmt64 (X m).
Proof.
  intros H. apply generic_format_FLT. apply (FLT_spec _ _ _ _ (Float radix2 m (-53))).
  - reflexivity.
  - cbn [Fnum]. change (Zpower radix2 53) with (2 ^ 53)%Z. lia.
  - cbn [Fexp]. lia.
Qed.
Lemma one_format : Fmt64 1.
Proof. change 1 with (bpow radix2 0). apply generic_format_FLT_bpow; [exact Hp53|lia]. Qed.
Lemma half_format : Fmt64 (/ 2).
Proof. change (/ 2) with (bpow radix2 (-1)). apply generic_format_FLT_bpow; [exact Hp53|lia]. Qed.
Lemma quarter_format : Fmt64 (/ 4).
Proof.
  change (/ 4) with (bpow radix2 (-2)). apply generic_format_FLT_bpow; [exact Hp53|lia].
Qed.

Lemma below_one x : Fmt64 x -> x < 1 -> x <= X (2 ^ 53 - 1).
Proof.
  intros Fx H. pose proof (pred_ge_gt radix2 fexp64 x 1 Fx one_format H) as P.
  change 1 with (bpow radix2 0) in P at 1. rewrite pred_bpow in P.
  pose proof X_one as E. unfold X in *. rewrite minus_IZR, Rmult_minus_distr_r, E.
  change (bpow radix2 0) with 1 in P. change (bpow radix2 (fexp64 0)) with B53 in P. lra.
Qed.

Lemma sq_step m m' : (0 <= m)%Z -> (2 ^ 52 <= m' < 2 ^ 53)%Z -> (m * m < (2 * m' + 1) * 2 ^ 52)%Z ->
  rnd64 (X m * X m) <= X m'.
Proof.
  intros Hm Hm' H. unfold rnd64. apply round_N_le_midp; tc; [apply X_format; lia|].
  pose proof (X_range m' Hm') as R.
  rewrite succ_eq_pos by lra. rewrite (ulp_half_one _ R).
  apply IZR_lt in H. rewrite !mult_IZR, plus_IZR, mult_IZR in H.
  pose proof B53_pos as P. pose proof X_half as S. unfold X in *.
  set (a := IZR m) in *. set (b := IZR m') in *. set (T := IZR (2 ^ 52)) in *.
  assert (a * a * B53 < (2 * b + 1) / 2) as K.
  { replace ((2 * b + 1) / 2) with ((2 * b + 1) * T * B53) by (rewrite Rmult_assoc, S; field).
    apply Rmult_lt_compat_r; [exact P|]. exact H. }
  replace (a * B53 * (a * B53)) with (a * a * B53 * B53) by ring.
  replace ((b * B53 + (b * B53 + B53)) / 2) with ((2 * b + 1) / 2 * B53) by field.
  apply Rmult_lt_compat_r; assumption.
Qed.

(* the division by 2^53 is written as a shift: Mseq_53 below evaluates Hstep 53 times *)
Definition Hstep (M : Z) : Z := Z.max (Z.shiftr (M * M + 2 ^ 52) 53) (2 ^ 52).

Lemma Hstep_range M : (2 ^ 52 <= M < 2 ^ 53)%Z ->
  (2 ^ 52 <= Hstep M < 2 ^ 53)%Z /\ (M * M < (2 * Hstep M + 1) * 2 ^ 52)%Z.
Proof.
  intros H. unfold Hstep. rewrite Z.shiftr_div_pow2 by lia. set (q := ((M * M + 2 ^ 52) / 2 ^ 53)%Z).
  pose proof (Z.div_mod (M * M + 2 ^ 52) (2 ^ 53) ltac:(lia)) as D. fold q in D.
  pose proof (Z.mod_pos_bound (M * M + 2 ^ 52) (2 ^ 53) ltac:(lia)) as B.
  assert (M * M <= (2 ^ 53 - 1) * (2 ^ 53 - 1))%Z as U by (apply Z.mul_le_mono_nonneg; lia).
  assert (q < 2 ^ 53)%Z.
  { destruct (Z.lt_ge_cases q (2 ^ 53)) as [L|L]; [exact L|exfalso].
    assert (2 ^ 53 * 2 ^ 53 <= 2 ^ 53 * q)%Z by (apply Z.mul_le_mono_nonneg_l; lia). lia. }
  split; [lia|]. lia.
Qed.

Lemma sq_bound x M : (2 ^ 52 <= M < 2 ^ 53)%Z -> 0 <= x <= X M -> rnd64 (x * x) <= X (Hstep M).
Proof.
  intros HM Hx. destruct (Hstep_range M HM) as [R1 R2].
  apply Rle_trans with (rnd64 (X M * X M)).
  - unfold rnd64. apply round_le; tc.
    apply Rmult_le_compat; lra.
  - apply sq_step; [lia|exact R1|exact R2].
Qed.

Fixpoint Mseq (j : nat) : Z := match j with O => (2 ^ 53 - 1)%Z | S i => Hstep (Mseq i) end.
Lemma Mseq_range j : (2 ^ 52 <= Mseq j < 2 ^ 53)%Z.
Proof. induction j as [|j IH]; [cbn; lia|]. cbn [Mseq]. apply Hstep_range, IH. Qed.
Lemma Mseq_53 : Mseq 53 = (2 ^ 52)%Z.
Proof. vm_compute. reflexivity. Qed.

Lemma rnd64_ge_quarter x : / 2 <= x -> / 4 <= rnd64 (x * x).
Proof.
  intros H. unfold rnd64. apply round_ge_generic; tc; [apply quarter_format|].
  nra.
Qed.
Lemma rnd64_sq_nonneg x : 0 <= rnd64 (x * x).
Proof.
  unfold rnd64. apply round_ge_generic; tc; [apply generic_format_0|]. nra.
Qed.
Lemma rnd64_sq_le_quarter x : 0 <= x <= / 2 -> rnd64 (x * x) <= / 4.
Proof.
  intros H. unfold rnd64. apply round_le_generic; tc; [apply quarter_format|].
  nra.
Qed.

Lemma pred_half_one x : Fmt64 x -> / 2 < x < 1 -> pred radix2 fexp64 x = x - B53.
Proof.
  intros Fx H. rewrite pred_eq_pos by lra. unfold pred_pos.
  rewrite (mag_half_one x) by lra. rewrite Req_bool_false.
  - rewrite ulp_half_one by lra. reflexivity.
  - change (bpow radix2 (0 - 1)) with (/ 2). lra.
Qed.

Theorem sq_decreases x : Fmt64 x -> / 2 < x < 1 -> / 4 <= rnd64 (x * x) <= x - B53.
Proof.
  intros Fx H. split; [apply rnd64_ge_quarter; lra|].
  rewrite <- (pred_half_one x Fx H). unfold rnd64.
  apply round_N_le_midp; tc; [apply generic_format_pred; tc; exact Fx|].
  rewrite succ_pred by (first [exact fexp64_valid|exact Fx]). rewrite (pred_half_one x Fx H).
  pose proof (below_one x Fx ltac:(lra)) as U. pose proof X_one as E. unfold X in *.
  rewrite minus_IZR, Rmult_minus_distr_r, E, Rmult_1_l in U.
  pose proof B53_pos. nra.
Qed.

Definition half64 : float64 := @B754_finite 53 1024 false 4503599627370496 (-53) eq_refl.
Lemma half64_val : B2R half64 = / 2.
Proof. change (B2R half64) with (X (2 ^ 52)). apply X_half. Qed.

Definition fsq (x : float64) : float64 := Bmult mode_NE x x.

Fixpoint geo_new_loopB (fuel : nat) (pi : float64) (k : Z) : option (float64 * Z) :=
  match fuel with
  | O => None
  | S f => if Bltb half64 pi then geo_new_loopB f (fsq pi) (k + 1) else Some (pi, k)
  end.
(* Geometric::new, the `else` branch, from pi0 = 1.0 - p; fuel 64 as in Model/Discrete.v *)
Definition geo_newB (pi0 : float64) : option (float64 * Z) := geo_new_loopB 64 (fsq pi0) 1.

Lemma fsq_correct x : is_finite x = true -> Rabs (B2R x) <= 1 ->
  is_finite (fsq x) = true /\ B2R (fsq x) = rnd64 (B2R x * B2R x).
Proof.
  intros Fx Hx.
  apply (FloatWeightsOps.rounded_finite _ _ _ 1 (FloatWeightsOps.fmul_rounded x x Fx Fx)).
  - apply one_format.
  - change 1 with (bpow radix2 0). apply bpow_lt. lia.
  - rewrite Rabs_mult. pose proof (Rabs_pos (B2R x)). nra.
Qed.

Theorem fsq_decreases x : is_finite x = true -> / 2 < B2R x < 1 ->
  is_finite (fsq x) = true /\ / 4 <= B2R (fsq x) <= B2R x - B53 /\ B2R (fsq x) < B2R x.
Proof.
  intros Fx H. destruct (fsq_correct x Fx) as [Fi V]; [rewrite Rabs_pos_eq; lra|].
  split; [exact Fi|]. rewrite V.
  pose proof (sq_decreases (B2R x) (generic_format_B2R 53 1024 x) H) as D. pose proof B53_pos.
  split; [exact D|lra].
Qed.

(* one squaring moves from the mantissa bound Mseq j to Mseq (j+1) *)
Lemma fsq_Mseq j pi : is_finite pi = true -> 0 <= B2R pi <= X (Mseq j) ->
  is_finite (fsq pi) = true /\ 0 <= B2R (fsq pi) <= X (Mseq (S j)) /\
  (/ 2 <= B2R pi -> / 4 <= B2R (fsq pi)).
Proof.
  intros Fi H. pose proof (Mseq_range j) as MR. pose proof (X_range _ MR).
  destruct (fsq_correct pi Fi) as [F V]; [rewrite Rabs_pos_eq; lra|]. rewrite V.
  split; [exact F|]. split; [|apply rnd64_ge_quarter].
  split; [apply rnd64_sq_nonneg | apply sq_bound; assumption].
Qed.

Lemma geo_new_loopB_stop fuel pi k : is_finite pi = true -> B2R pi <= / 2 ->
  geo_new_loopB (S fuel) pi k = Some (pi, k).
Proof.
  intros Fi H. cbn [geo_new_loopB].
  rewrite Bltb_correct, half64_val, Rlt_bool_false by (reflexivity || assumption). reflexivity.
Qed.

Lemma geo_new_loopB_spec fuel : forall (j : nat) pi k,
  is_finite pi = true -> 0 <= B2R pi <= X (Mseq j) -> (j <= 53)%nat -> (53 < j + fuel)%nat ->
  exists pi' k', geo_new_loopB fuel pi k = Some (pi', k') /\ (k <= k' <= k + (53 - Z.of_nat j))%Z /\
                 is_finite pi' = true /\ 0 <= B2R pi' <= / 2 /\ (/ 4 <= B2R pi -> / 4 <= B2R pi').
Proof.
  induction fuel as [|f IH]; intros j pi k Fi Hpi Hj Hf; [lia|].
  destruct (Rle_or_lt (B2R pi) (/ 2)) as [L|L].
  - rewrite geo_new_loopB_stop by assumption.
    exists pi, k. split; [reflexivity|]. split; [lia|]. split; [exact Fi|]. split; [lra|auto].
  - cbn [geo_new_loopB]. rewrite Bltb_correct, half64_val, Rlt_bool_true by (reflexivity || assumption).
    assert (j <> 53)%nat as Hj' by (intros ->; rewrite Mseq_53, X_half in Hpi; lra).
    destruct (fsq_Mseq j pi Fi Hpi) as (Fi2 & B2 & Q2).
    destruct (IH (S j) (fsq pi) (k + 1)%Z Fi2 B2) as (pi' & k' & E & K & F' & B' & Q'); [lia | lia |].
    exists pi', k'. split; [exact E|]. split; [lia|]. split; [exact F'|]. split; [exact B'|].
    intros _. apply Q', Q2. lra.
Qed.

(* Geometric::new terminates with k <= 53 for every pi0 = fl(1 - p) in [0, 1) *)
Theorem geometric_new_terminates (pi0 : float64) : is_finite pi0 = true -> 0 <= B2R pi0 < 1 ->
  exists pi k, geo_newB pi0 = Some (pi, k) /\ (1 <= k <= 53)%Z /\ is_finite pi = true /\
               0 <= B2R pi <= / 2 /\ (/ 2 <= B2R pi0 -> / 4 <= B2R pi).
Proof.
  intros Fi H. unfold geo_newB.
  pose proof (below_one _ (generic_format_B2R 53 1024 pi0) (proj2 H)) as U.
  destruct (fsq_Mseq 0 pi0 Fi) as (Fi1 & B1 & Q1); [split; [lra | exact U]|].
  destruct (geo_new_loopB_spec 64 1 (fsq pi0) 1%Z Fi1 B1) as (pi & k & E & K & F' & B' & Q'); [lia|lia|].
  exists pi, k. split; [exact E|]. split; [lia|]. split; [exact F'|]. split; [exact B'|].
  intros G. apply Q', Q1, G.
Qed.

(* for pi0 <= 1/2 (p >= 1/2; the code takes this branch for p < 2/3) the loop body never runs *)
Theorem geometric_new_small (pi0 : float64) : is_finite pi0 = true -> 0 <= B2R pi0 <= / 2 ->
  geo_newB pi0 = Some (fsq pi0, 1%Z).
Proof.
  intros Fi H. destruct (fsq_correct pi0 Fi) as [Fi1 V]; [rewrite Rabs_pos_eq; lra|].
  apply geo_new_loopB_stop; [exact Fi1|]. rewrite V. pose proof (rnd64_sq_le_quarter _ H). lra.
Qed.

(* (1 - a)^n <= 1 / (1 + n a), from Bernoulli's inequality *)
Lemma pow_one_minus a n : 0 < a <= 1 -> (1 - a) ^ n * (1 + INR n * a) <= 1.
Proof.
  intros H. apply Rle_trans with ((1 - a) ^ n * (1 + a) ^ n).
  - apply Rmult_le_compat_l; [apply pow_le; lra | apply poly; lra].
  - rewrite <- Rpow_mult_distr. apply Rle_trans with (1 ^ n); [apply pow_incr; nra | rewrite pow1; lra].
Qed.
Theorem exact_squarings_bound x (j : nat) : 0 <= x <= 1 - / 2 ^ j -> x ^ (2 ^ j) <= / 2.
Proof.
  intros H. assert (0 < 2 ^ j) as P by (apply pow_lt; lra).
  assert (0 < / 2 ^ j <= 1) as A.
  { split; [now apply Rinv_0_lt_compat|]. rewrite <- Rinv_1. apply Rinv_le_contravar; [lra|].
    apply pow_R1_Rle. lra. }
  apply Rle_trans with ((1 - / 2 ^ j) ^ (2 ^ j)); [apply pow_incr; lra|].
  pose proof (pow_one_minus (/ 2 ^ j) (2 ^ j) ltac:(lra)) as B.
  rewrite pow_INR in B. change (INR 2) with 2 in B. rewrite Rinv_r in B by lra.
  assert (0 <= (1 - / 2 ^ j) ^ 2 ^ j) by (apply pow_le; lra). lra.
Qed.
Lemma iter_sq_pow x (j : nat) : Nat.iter j (fun y => y * y) x = x ^ (2 ^ j).
Proof.
  induction j as [|j IH]; [cbn; ring|].
  change (Nat.iter (S j) (fun y => y * y) x) with (Nat.iter j (fun y => y * y) x * Nat.iter j (fun y => y * y) x).
  rewrite IH, <- pow_add. f_equal. cbn. lia.
Qed.
