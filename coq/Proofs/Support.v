(* Proofs/Support.v — part of property C03 on the ideal real-number models of Model/Continuous.v:
   every result the exact semantics `evals` can produce whose expression denotes a real number
   lies in the support of the distribution.                                                        *)
From Coq Require Import Reals List Lra Lia.
From Interval Require Import Xreal.
From Flocq Require Import Core.
From RD Require Import Base.Expr Base.Run Model.Sampler Model.Continuous Gen.ZigTables Proofs.RejectTools Proofs.LawsInvCdf
  Proofs.LawsTriangular.
Import ListNotations.
Open Scope Z_scope.
Open Scope sampler_scope.

Import ExprNotations.

(* "every result of the exact semantics satisfies P", as a structural predicate *)
Fixpoint allsem {A} (P : A -> Prop) (r : run A) : Prop :=
  match r with
  | Ret a => P a
  | Ask c a b k => forall x y, evalX a = Xreal x -> evalX b = Xreal y -> allsem P (k (rcmp c x y))
  | AskFloor e k => forall x, evalX e = Xreal x -> allsem P (k (Zfloor x))
  | Fail _ => True
  end.

Lemma allsem_evals {A} (P : A -> Prop) r : allsem P r <-> forall v, evals r v -> P v.
Proof.
  split.
  - intros H v E. induction E; cbn in H; auto.
  - induction r as [a|c a b k IH|e k IH|c]; cbn; intros H.
    + apply H. constructor.
    + intros x y Hx Hy. apply IH. intros v E. apply H. eapply EvAsk; eauto.
    + intros x Hx. apply IH. intros v E. apply H. eapply EvFloor; eauto.
    + exact I.
Qed.
Lemma allsem_elim {A} (P : A -> Prop) r v : allsem P r -> evals r v -> P v.
Proof. intros H. now apply allsem_evals. Qed.
Lemma allsem_mono {A} (P Q : A -> Prop) r : (forall a, P a -> Q a) -> allsem P r -> allsem Q r.
Proof. intros H. induction r; cbn; auto. Qed.
Lemma allsem_and {A} (P Q : A -> Prop) r : allsem P r -> allsem Q r -> allsem (fun a => P a /\ Q a) r.
Proof. induction r; cbn; auto. Qed.
Lemma allsem_bind {A B} (Q : B -> Prop) (r : run A) (k : A -> run B) :
  allsem (fun a => allsem Q (k a)) r -> allsem Q (bind r k).
Proof. induction r; cbn; auto. Qed.
Lemma allsem_bind_any {A B} (Q : B -> Prop) (r : run A) (k : A -> run B) :
  (forall a, allsem Q (k a)) -> allsem Q (bind r k).
Proof. intros H. induction r; cbn; auto. Qed.
Lemma allsem_sbind {A B} (Q : B * list Z -> Prop) (P : A * list Z -> Prop) (m : sampler A) (k : A -> sampler B) ws :
  allsem P (m ws) -> (forall a ws', P (a, ws') -> allsem Q (k a ws')) -> allsem Q (sbind m k ws).
Proof.
  intros Hm Hk. unfold sbind. apply allsem_bind. eapply allsem_mono; [|exact Hm].
  intros [a ws'] Ha. apply Hk, Ha.
Qed.

Ltac sstep := cbn [sbind bind draw_open draw_std draw_oc next_word sret sask sfail allsem negb fst snd].

Local Open Scope R_scope.

(* the operations of the extended reals are strict: an expression with a real value has operands with real values *)
Lemma add_real a b z : evalX (a +. b) = Xreal z -> exists x y, evalX a = Xreal x /\ evalX b = Xreal y /\ z = x + y.
Proof.
  cbn [evalX xbin]. destruct (evalX a) as [|x], (evalX b) as [|y]; try discriminate. intros H. injection H as <-. eauto.
Qed.
Lemma sub_real a b z : evalX (a -. b) = Xreal z -> exists x y, evalX a = Xreal x /\ evalX b = Xreal y /\ z = x - y.
Proof.
  cbn [evalX xbin]. destruct (evalX a) as [|x], (evalX b) as [|y]; try discriminate. intros H. injection H as <-. eauto.
Qed.
Lemma mul_real a b z : evalX (a *. b) = Xreal z -> exists x y, evalX a = Xreal x /\ evalX b = Xreal y /\ z = x * y.
Proof.
  cbn [evalX xbin]. destruct (evalX a) as [|x], (evalX b) as [|y]; try discriminate. intros H. injection H as <-. eauto.
Qed.
Lemma div_real a b z :
  evalX (a /. b) = Xreal z -> exists x y, evalX a = Xreal x /\ evalX b = Xreal y /\ y <> 0 /\ z = x / y.
Proof.
  cbn [evalX xbin]. destruct (evalX a) as [|x], (evalX b) as [|y]; try discriminate. cbn. unfold Xdiv'.
  destruct (is_zero_spec y) as [Z|NZ]; [discriminate|]. intros H. injection H as <-. exists x, y. auto.
Qed.
Lemma ln_real a z : evalX (eln a) = Xreal z -> exists x, evalX a = Xreal x /\ 0 < x /\ z = ln x.
Proof.
  cbn [eln evalX xun]. destruct (evalX a) as [|x]; [discriminate|]. cbn. unfold Xln'.
  destruct (is_positive_spec x) as [P|NP]; [|discriminate]. intros H. injection H as <-. exists x. auto.
Qed.
Lemma exp_real a z : evalX (eexp a) = Xreal z -> exists x, evalX a = Xreal x /\ z = exp x.
Proof. cbn [eexp evalX xun]. destruct (evalX a) as [|x]; [discriminate|]. intros H. injection H as <-. eauto. Qed.
Lemma neg_real a z : evalX (eneg a) = Xreal z -> exists x, evalX a = Xreal x /\ z = - x.
Proof. cbn [eneg evalX xun]. destruct (evalX a) as [|x]; [discriminate|]. intros H. injection H as <-. eauto. Qed.

Definition pos (e : expr) : Prop := exists r, evalX e = Xreal r /\ 0 < r.
(* positive / nonnegative whenever defined *)
Definition dpos (e : expr) : Prop := forall x, evalX e = Xreal x -> 0 < x.
Definition dnn (e : expr) : Prop := forall x, evalX e = Xreal x -> 0 <= x.

Lemma rat_eval p q : IZR q <> 0 -> evalX (rat p q) = Xreal (IZR p / IZR q).
Proof. intros H. unfold rat. cbn [evalX xbin]. rewrite !num_eval. now rewrite Xdiv_nz. Qed.

Lemma dpos_dnn e : dpos e -> dnn e.
Proof. intros H x Hx. apply Rlt_le, H, Hx. Qed.
Lemma dpos_real e r : evalX e = Xreal r -> 0 < r -> dpos e.
Proof. intros E P x H. rewrite E in H. now injection H as <-. Qed.
Lemma pos_dpos e : pos e -> dpos e.
Proof. intros [r [E P]]. exact (dpos_real e r E P). Qed.
Lemma pos_dyx q : 0 < dyR q -> pos (dyx q).
Proof. intros H. exists (dyR q). split; [apply dyx_eval|exact H]. Qed.
Lemma dpos_dyx q : 0 < dyR q -> dpos (dyx q).
Proof. apply dpos_real, dyx_eval. Qed.
Lemma dpos_one : dpos one.
Proof. apply (dpos_real one 1 one_eval). lra. Qed.

Lemma dpos_mul a b : dpos a -> dpos b -> dpos (a *. b).
Proof.
  intros Ha Hb x H. apply mul_real in H. destruct H as (xa & xb & Ea & Eb & ->).
  apply Rmult_lt_0_compat; auto.
Qed.
Lemma dnn_mul a b : dnn a -> dnn b -> dnn (a *. b).
Proof.
  intros Ha Hb x H. apply mul_real in H. destruct H as (xa & xb & Ea & Eb & ->).
  apply Rmult_le_pos; auto.
Qed.
Lemma dnn_add a b : dnn a -> dnn b -> dnn (a +. b).
Proof.
  intros Ha Hb x H. apply add_real in H. destruct H as (xa & xb & Ea & Eb & ->).
  apply Rplus_le_le_0_compat; auto.
Qed.
(* a defined quotient has a nonzero denominator *)
Lemma dpos_div a b : dpos a -> dpos b -> dpos (a /. b).
Proof.
  intros Ha Hb x H. apply div_real in H. destruct H as (xa & xb & Ea & Eb & _ & ->).
  apply div_gt_0; auto.
Qed.
Lemma dnn_div a b : dnn a -> dnn b -> dnn (a /. b).
Proof.
  intros Ha Hb x H. apply div_real in H. destruct H as (xa & xb & Ea & Eb & NZ & ->).
  apply div_ge_0; [|auto]. specialize (Hb xb Eb). lra.
Qed.
Lemma dpos_exp v : dpos (eexp v).
Proof. intros x H. apply exp_real in H. destruct H as (r & _ & ->). apply exp_pos. Qed.
Lemma dpos_pow a b : dpos (epow a b).
Proof.
  intros x. unfold epow. cbn [evalX xbin]. unfold Xpow.
  destruct (Xmul (evalX b) (Xln (evalX a))) as [|r]; [discriminate|]. intros H. injection H as <-. apply exp_pos.
Qed.
Lemma dnn_rnd e : dnn e -> dnn (rnd e).
Proof. intros H. exact H. Qed.
(* a * exp v is positive whenever defined, for positive a *)
Lemma dpos_mul_exp a v : pos a -> dpos (a *. eexp v).
Proof. intros H. apply dpos_mul; [apply pos_dpos, H|apply dpos_exp]. Qed.

(* comparisons of dyadic parameters are comparisons of their real values *)
Lemma dyR_norm q e : (e <= snd q)%Z -> dyR q = IZR (fst q * 2 ^ (snd q - e)) * powerRZ 2 e.
Proof.
  intros H. unfold dyR. rewrite mult_IZR.
  change (2 ^ (snd q - e))%Z with (radix2 ^ (snd q - e))%Z.
  rewrite IZR_Zpower by lia. rewrite bpow_powerRZ. change (IZR radix2) with 2.
  rewrite Rmult_assoc, <- powerRZ_add by lra. do 2 f_equal. lia.
Qed.
Lemma dy_cmp_spec a b : dy_cmp a b = Rcompare (dyR a) (dyR b).
Proof.
  unfold dy_cmp. set (e := Z.min (snd a) (snd b)).
  rewrite (dyR_norm a e), (dyR_norm b e) by lia.
  rewrite Rcompare_mult_r by (apply powerRZ_lt; lra). now rewrite Rcompare_IZR.
Qed.
Lemma dy_ltb_true a b : dy_ltb a b = true -> dyR a < dyR b.
Proof. unfold dy_ltb. rewrite dy_cmp_spec. destruct (Rcompare_spec (dyR a) (dyR b)); try discriminate. auto. Qed.
Lemma dy_ltb_false a b : dy_ltb a b = false -> dyR b <= dyR a.
Proof. unfold dy_ltb. rewrite dy_cmp_spec. destruct (Rcompare_spec (dyR a) (dyR b)); try discriminate; lra. Qed.
Lemma dy_eqb_true a b : dy_eqb a b = true -> dyR a = dyR b.
Proof. unfold dy_eqb. rewrite dy_cmp_spec. destruct (Rcompare_spec (dyR a) (dyR b)); try discriminate; lra. Qed.
Lemma dy_eqb_false a b : dy_eqb a b = false -> dyR a <> dyR b.
Proof. unfold dy_eqb. rewrite dy_cmp_spec. destruct (Rcompare_spec (dyR a) (dyR b)); try discriminate; lra. Qed.
Lemma dyR_nonneg q : (0 <= fst q)%Z -> 0 <= dyR q.
Proof.
  intros H. unfold dyR. apply Rmult_le_pos; [now apply IZR_le|]. apply Rlt_le, powerRZ_lt. lra.
Qed.
Lemma dnn_dy m e : (0 <= m)%Z -> dnn (Dy m e).
Proof. intros H x E. cbn [evalX] in E. rewrite xdy_real in E. injection E as <-. exact (dyR_nonneg (m, e) H). Qed.

(* Beta: both rejection loops return w = a exp v, and the result is w/(b+w) or b/(b+w) *)
Definition is_aexp (a : expr) (p : expr * list Z) : Prop := exists v, fst p = a *. eexp v.

Lemma beta_bb_leaves fuel t a b alpha beta gamma ws :
  allsem (is_aexp a) (beta_bb fuel t a b alpha beta gamma ws).
Proof.
  revert ws. induction fuel as [|f IH]; intros ws; [exact I|].
  destruct ws as [|w1 [|w2 ws]]; [exact I|exact I|]. cbn [beta_bb].
  sstep. intros x y _ _. destruct (rcmp CGe x y); sstep; [eexists; reflexivity|].
  intros x1 y1 _ _. destruct (rcmp CGe x1 y1); sstep; [eexists; reflexivity|].
  intros x2 y2 _ _. destruct (rcmp CLt x2 y2); sstep; [apply IH|eexists; reflexivity].
Qed.

Lemma beta_bc_leaves fuel t a b alpha beta k1 k2 ws :
  allsem (is_aexp a) (beta_bc fuel t a b alpha beta k1 k2 ws).
Proof.
  revert ws. induction fuel as [|f IH]; intros ws; [exact I|].
  destruct ws as [|w1 [|w2 ws]]; [exact I|exact I|]. cbn [beta_bc].
  sstep. intros x y _ _. destruct (rcmp CLt x y); sstep.
  - intros x1 y1 _ _. destruct (rcmp CGe x1 y1); sstep; [apply IH|].
    intros x2 y2 _ _. destruct (rcmp CLt x2 y2); sstep; [apply IH|eexists; reflexivity].
  - intros x1 y1 _ _. destruct (rcmp CLe x1 y1); sstep; [eexists; reflexivity|].
    intros x2 y2 _ _. destruct (rcmp CGe x2 y2); sstep; [apply IH|].
    intros x3 y3 _ _. destruct (rcmp CLt x3 y3); sstep; [apply IH|eexists; reflexivity].
Qed.

(* the two forms of the result; {a, b} = {a0, b0} in some order *)
Definition unit_form (a0 b0 e : expr) : Prop :=
  exists a b v, ((a = a0 /\ b = b0) \/ (a = b0 /\ b = a0)) /\
                (e = (a *. eexp v) /. (b +. a *. eexp v) \/ e = b /. (b +. a *. eexp v)).

Lemma unit_form_ret a0 b0 a b w sw ws : (a = a0 /\ b = b0) \/ (a = b0 /\ b = a0) -> is_aexp a (w, ws) ->
  allsem (fun p => unit_form a0 b0 (fst p)) ((if negb sw then sret (w /. (b +. w)) else sret (b /. (b +. w))) ws).
Proof. intros Hab [v Hv]. cbn [fst] in Hv. subst w. destruct sw; exists a, b, v; auto. Qed.

Lemma beta_e_leaves t lt gt1 a0 b0 ws :
  allsem (fun p => unit_form a0 b0 (fst p)) (beta_e t lt gt1 a0 b0 ws).
Proof.
  unfold beta_e. destruct lt, gt1.
  all: eapply allsem_sbind; [apply beta_bb_leaves || apply beta_bc_leaves|].
  all: intros w ws' H; eapply unit_form_ret; [|exact H]; auto.
Qed.

Lemma ratio_range w b p x : dpos w -> dpos b -> p = w \/ p = b -> evalX (p /. (b +. w)) = Xreal x -> 0 < x < 1.
Proof.
  intros Hw Hb Hp H. apply div_real in H. destruct H as (xp & s & Ep & Es & _ & ->).
  apply add_real in Es. destruct Es as (xb & xw & Eb & Ew & ->).
  specialize (Hw xw Ew). specialize (Hb xb Eb).
  assert (xp = xw \/ xp = xb) as [-> | ->] by (destruct Hp as [-> | ->]; [left|right]; congruence).
  all: split; [apply div_gt_0|apply div_lt_1]; lra.
Qed.

Lemma unit_form_range a0 b0 e x : pos a0 -> pos b0 -> unit_form a0 b0 e -> evalX e = Xreal x -> 0 < x < 1.
Proof.
  intros P0 Q0 (a & b & v & Hab & He).
  assert (dpos (a *. eexp v) /\ dpos b) as [W B]
    by (destruct Hab as [[-> ->]|[-> ->]]; auto using dpos_mul_exp, pos_dpos).
  destruct He as [-> | ->]; apply ratio_range; auto.
Qed.

(* Beta(alpha, beta) in (0, 1) on the ideal model, hence in [0, 1] *)
Theorem beta_in_open_unit t alpha beta ws e rest x :
  0 < dyR alpha -> 0 < dyR beta ->
  evals (Continuous.beta t alpha beta ws) (e, rest) -> evalX e = Xreal x -> 0 < x < 1.
Proof.
  intros Ha Hb E. apply (unit_form_range _ _ _ _ (pos_dyx _ Ha) (pos_dyx _ Hb)).
  exact (allsem_elim _ _ _ (beta_e_leaves _ _ _ _ _ _) E).
Qed.
Theorem beta_in_unit t alpha beta ws e rest x :
  0 < dyR alpha -> 0 < dyR beta ->
  evals (Continuous.beta t alpha beta ws) (e, rest) -> evalX e = Xreal x -> 0 <= x <= 1.
Proof. intros Ha Hb E V. pose proof (beta_in_open_unit _ _ _ _ _ _ _ Ha Hb E V). lra. Qed.

(* Marsaglia-Tsang: the returned v = (1 + c x)^3 was tested positive *)
Lemma gamma_unscaled_leaves fuel t c d ws :
  allsem (fun p => dpos (fst p)) (gamma_unscaled fuel t c d ws).
Proof.
  revert ws. induction fuel as [|f IH]; intros ws; [exact I|].
  cbn [gamma_unscaled]. unfold sbind at 1. apply allsem_bind_any. intros [x ws1].
  sstep. intros x0 y0 Hx Hy. rewrite num_eval in Hy. injection Hy as <-.
  unfold rcmp. destruct (Rle_dec x0 0) as [L|L]; [apply IH|].
  assert (dpos (one +. c *. x)) as B by (apply (dpos_real _ x0 Hx); lra).
  pose proof (dpos_mul _ _ (dpos_mul _ _ B B) B) as V.
  destruct ws1 as [|w ws2]; sstep; [exact I|].
  intros x1 y1 _ _. destruct (rcmp CLt x1 y1); sstep; [exact V|].
  intros x2 y2 _ _. destruct (rcmp CLt x2 y2); sstep; [exact V|apply IH].
Qed.

Definition tab_nonneg (X : list (Z * Z)) : Prop := Forall (fun q => (0 <= fst q)%Z) X.
Lemma tab_nonneg_dnn X i : tab_nonneg X -> dnn (tab X i).
Proof.
  intros H. apply dnn_dy. revert i. induction H; intros [|i]; cbn; try lia; auto.
Qed.
(* decided by computation on the generated table *)
Lemma ZIG_EXP_X_nonneg : tab_nonneg ZIG_EXP_X.
Proof.
  apply Forall_forall. intros q H.
  assert (forallb (fun q => (0 <=? fst q)%Z) ZIG_EXP_X = true) as F by (vm_compute; reflexivity).
  rewrite forallb_forall in F. apply Z.leb_le, F, H.
Qed.
Lemma ZIG_EXP_R_nonneg : 0 <= dyR ZIG_EXP_R.
Proof. apply dyR_nonneg. vm_compute. discriminate. Qed.

Definition nn_words (p : expr * list Z) : Prop := dnn (fst p) /\ Forall word (snd p).

Lemma zig_unsigned_leaves X Fv pdf zero fuel ws :
  tab_nonneg X ->
  (forall um u ws', Forall word ws' -> allsem nn_words (zero um u ws')) ->
  Forall word ws -> allsem nn_words (zig fuel false X Fv pdf zero ws).
Proof.
  intros HX Hz. revert ws. induction fuel as [|f IH]; intros ws Hw; [exact I|].
  destruct ws as [|bits ws]; [exact I|]. inversion Hw as [|? ? Hb Hws]; subst.
  cbn [zig]. sstep. set (i := Z.to_nat (bits mod 256)). set (um := (2 * (bits / 2 ^ 12) + 1)%Z).
  assert (dnn (Exact (Dy um (-53)) *. tab X i)) as Leaf.
  { apply dnn_mul; [|apply tab_nonneg_dnn, HX]. apply (dnn_dy um).
    pose proof (Z.div_pos bits (2 ^ 12) (proj1 Hb) ltac:(lia)). lia. }
  intros x y _ _. destruct (rcmp CLt x y); sstep; [exact (conj Leaf Hws)|].
  destruct (Nat.eqb i 0); [apply Hz, Hws|].
  destruct ws as [|w2 ws3]; sstep; [exact I|]. inversion Hws; subst.
  intros x1 y1 _ _. destruct (rcmp CLt x1 y1); sstep; [split|apply IH]; assumption.
Qed.

(* the tail routine is defined for EVERY word: with the Open01 draw ln never sees 0 (repair of finding F5) *)
Lemma exp_tail_value w : word w ->
  exists x, evalX (dyx ZIG_EXP_R -. eln (u_open F64 w)) = Xreal x /\ dyR ZIG_EXP_R < x.
Proof.
  intros Hb. destruct (u_open_range F64 w Hb) as (uu & EU & U). exists (dyR ZIG_EXP_R - ln uu).
  cbn [evalX xbin eln xun]. rewrite dyx_eval, EU, Xln_pos by lra. split; [reflexivity|].
  pose proof (ln_neg_pos uu U). lra.
Qed.
Lemma exp_zero_defined um u w ws : word w ->
  exists x, evals (exp_zero um u (w :: ws)) (dyx ZIG_EXP_R -. eln (u_open F64 w), ws) /\
            evalX (dyx ZIG_EXP_R -. eln (u_open F64 w)) = Xreal x /\ dyR ZIG_EXP_R < x.
Proof.
  intros Hb. destruct (exp_tail_value w Hb) as (x & V). exists x. split; [constructor|exact V].
Qed.
Lemma exp_zero_leaves um u ws : Forall word ws -> allsem nn_words (exp_zero um u ws).
Proof.
  intros Hw. destruct Hw as [|w ws Hb Hws]; [exact I|]. split; [|exact Hws].
  destruct (exp_tail_value w Hb) as (x & E & L). apply dpos_dnn, (dpos_real _ x E).
  pose proof ZIG_EXP_R_nonneg. lra.
Qed.

Lemma exp1_leaves t ws : Forall word ws -> allsem nn_words (exp1 t ws).
Proof.
  intros Hw.
  assert (allsem nn_words (exp1_64 ws)) as H64.
  { unfold exp1_64. apply zig_unsigned_leaves; auto using ZIG_EXP_X_nonneg, exp_zero_leaves. }
  destruct t; cbn [exp1]; [|exact H64].
  eapply allsem_sbind; [exact H64|]. intros a ws' [Ha Hws]. exact (conj (dnn_rnd a Ha) Hws).
Qed.

(* Exp(lambda) >= 0 *)
Theorem exp_nonneg t lambda ws e rest x :
  0 < dyR lambda -> Forall word ws ->
  evals (exp_lambda t lambda ws) (e, rest) -> evalX e = Xreal x -> 0 <= x.
Proof.
  intros L Hw E. refine (allsem_elim (fun p => dnn (fst p)) _ _ _ E x).
  unfold exp_lambda. eapply allsem_sbind; [apply exp1_leaves, Hw|]. intros z ws' [Hz _]. sstep.
  apply dnn_mul; [exact Hz|]. apply dpos_dnn, dpos_div; [apply dpos_one|apply dpos_dyx, L].
Qed.
Theorem exp1_nonneg t ws e rest x :
  Forall word ws -> evals (exp1 t ws) (e, rest) -> evalX e = Xreal x -> 0 <= x.
Proof.
  intros Hw E. apply (allsem_elim _ _ _ (exp1_leaves t ws Hw) E).
Qed.

(* Gamma and ChiSquared, all three representations: shape = 1 (Exp1), shape < 1 (boosted by u^(1/shape)), shape > 1 *)
Lemma gamma_is_gamma_e t shape scale :
  gamma t shape scale = gamma_e t (dy_ltb shape (1, 0)%Z) (dy_eqb shape (1, 0)%Z) (dyx shape) (dyx scale).
Proof. reflexivity. Qed.

Lemma dpos_sub_third shape s : evalX shape = Xreal s -> 1 / 3 < s -> dpos (shape -. rat 1 3).
Proof.
  intros E H. apply (dpos_real _ (s - 1 / 3)); [|lra]. cbn [evalX xbin]. rewrite E, rat_eval by lra. reflexivity.
Qed.

Lemma gamma_e_leaves t lt1 eq1 shape scale s ws :
  dpos scale -> evalX shape = Xreal s -> Forall word ws -> 0 < s -> (lt1 = false -> 1 / 3 < s) ->
  allsem (fun p => dnn (fst p)) (gamma_e t lt1 eq1 shape scale ws).
Proof.
  intros Hsc Hs Hw H2 H3. unfold gamma_e, gamma_large_consts. destruct eq1.
  - eapply allsem_sbind; [apply exp1_leaves, Hw|]. intros z ws' [Hz _]. sstep.
    apply dnn_mul; [exact Hz|]. apply dpos_dnn. repeat apply dpos_div; auto using dpos_one.
  - destruct lt1.
    + assert (dpos (shape +. one -. rat 1 3)) as Hd.
      { apply (dpos_sub_third _ (s + 1)); [|lra]. cbn [evalX xbin]. now rewrite Hs, one_eval. }
      destruct ws as [|w ws1]; [exact I|]. sstep.
      eapply allsem_sbind; [apply gamma_unscaled_leaves|]. intros a ws' Ha. sstep.
      apply dpos_dnn. repeat apply dpos_mul; auto using dpos_pow.
    + pose proof (dpos_sub_third _ _ Hs (H3 eq_refl)) as Hd.
      eapply allsem_sbind; [apply gamma_unscaled_leaves|]. intros v ws' Hv. sstep.
      apply dpos_dnn. repeat apply dpos_mul; auto.
Qed.

Theorem gamma_nonneg t shape scale ws e rest x :
  0 < dyR shape -> 0 < dyR scale -> Forall word ws ->
  evals (gamma t shape scale ws) (e, rest) -> evalX e = Xreal x -> 0 <= x.
Proof.
  intros Hk Hs Hw E. refine (allsem_elim (fun p => dnn (fst p)) _ _ _ E x).
  rewrite gamma_is_gamma_e. apply (gamma_e_leaves _ _ _ _ _ (dyR shape)); auto using dpos_dyx, dyx_eval.
  intros L. apply dy_ltb_false in L. rewrite dyR_int in L. lra.
Qed.

Theorem chi_squared_nonneg t k ws e rest x :
  0 < dyR k -> Forall word ws ->
  evals (chi_squared t k ws) (e, rest) -> evalX e = Xreal x -> 0 <= x.
Proof.
  intros Hk Hw E. refine (allsem_elim (fun p => dnn (fst p)) _ _ _ E x).
  unfold chi_squared. destruct (dy_eqb k (1, 0)%Z).
  - unfold sbind. apply allsem_bind_any. intros [z ws']. sstep.
    intros y H. apply mul_real in H. destruct H as (a & b & Ea & Eb & ->). rewrite Ea in Eb. injection Eb as <-. nra.
  - assert (evalX (Exact (Dy (fst k) (snd k - 1))) = Xreal (dyR k / 2)) as Hs.
    { cbn [evalX]. rewrite xdy_real. f_equal. unfold dyR, Z.sub. rewrite powerRZ_add by lra.
      change (powerRZ 2 (- (1))) with (/ (2 * 1)). generalize (powerRZ 2 (snd k)). intros. field. }
    apply (gamma_e_leaves _ _ _ _ _ (dyR k / 2)); auto.
    + apply (dpos_real _ 2 (num_eval 2)). lra.
    + lra.
    + intros L. apply dy_ltb_false in L. rewrite dyR_int in L. lra.
Qed.

Lemma one_draw_inv {A} (m : sampler A) (f : Z -> A) ws v rest :
  (forall w ws', m (w :: ws') = Ret (f w, ws')) -> m [] = Fail 1%Z ->
  evals (m ws) (v, rest) -> exists w, ws = w :: rest /\ v = f w.
Proof.
  intros H1 H0 E. destruct ws as [|w ws'].
  - rewrite H0 in E. inversion E.
  - rewrite H1 in E. inversion E; subst. eauto.
Qed.

(* Weibull > 0 (whenever defined: the draw u = 1 gives 0^(1/k), undefined in the ideal model) *)
Theorem weibull_pos t scale shape ws e rest x :
  0 < dyR scale -> evals (weibull t scale shape ws) (e, rest) -> evalX e = Xreal x -> 0 < x.
Proof.
  intros Hs E. destruct (one_draw_inv _ (weibull_expr t scale shape) _ _ _ (weibull_run t scale shape) eq_refl E)
    as [w [-> ->]].
  revert x. apply dpos_mul; [apply dpos_dyx, Hs|apply dpos_pow].
Qed.
Theorem weibull_nonneg t scale shape ws e rest x :
  0 < dyR scale -> evals (weibull t scale shape ws) (e, rest) -> evalX e = Xreal x -> 0 <= x.
Proof. intros Hs E V. apply Rlt_le. eapply weibull_pos; eauto. Qed.

(* Frechet > location *)
Theorem frechet_gt_loc t loc scale shape ws e rest x :
  0 < dyR scale -> evals (frechet t loc scale shape ws) (e, rest) -> evalX e = Xreal x -> dyR loc < x.
Proof.
  intros Hs E. destruct (one_draw_inv _ (frechet_expr t loc scale shape) _ _ _ (frechet_run t loc scale shape) eq_refl E)
    as [w [-> ->]].
  intros H. apply add_real in H. destruct H as (l & r & El & Er & ->).
  rewrite dyx_eval in El. injection El as <-.
  pose proof (dpos_mul _ _ (dpos_dyx _ Hs) (dpos_pow _ _) r Er). lra.
Qed.

(* Pareto >= scale *)
Lemma Q_pareto_ge xm alpha u : 0 < xm -> 0 < alpha -> 0 < u <= 1 -> xm <= Q_pareto xm alpha u.
Proof.
  intros Hx Ha [U0 U1]. unfold Q_pareto, Rpower.
  assert (ln u <= 0) as L by (rewrite <- ln_1; apply ln_le_iff; lra).
  assert (1 <= exp (-1 / alpha * ln u)); [|nra].
  rewrite <- exp_0. apply exp_le_iff. assert (0 < / alpha) by now apply Rinv_0_lt_compat. unfold Rdiv. nra.
Qed.
Theorem pareto_ge_scale t scale shape ws e rest x :
  0 < dyR scale -> 0 < dyR shape -> Forall word ws ->
  evals (pareto t scale shape ws) (e, rest) -> evalX e = Xreal x -> dyR scale <= x.
Proof.
  intros Hs Hk Hw E. destruct (one_draw_inv _ (pareto_expr t scale shape) _ _ _ (pareto_run t scale shape) eq_refl E)
    as [w [-> ->]]. inversion Hw as [|? ? Hb _]; subst.
  rewrite pareto_value by assumption. intros H. injection H as <-.
  apply Q_pareto_ge; auto using uR_oc_range.
Qed.

(* Triangular in [min, max] *)
Lemma Q_tri_range a b c u : a < b -> a <= c <= b -> 0 <= u < 1 -> a <= LawsTriangular.Q_tri a b c u <= b.
Proof.
  intros Hab Hc Hu. unfold LawsTriangular.Q_tri.
  destruct (LawsTriangular.tri_radicands a b c u (Rlt_le _ _ Hab) Hc Hu) as [R1 R2].
  destruct (Rlt_dec (u * (b - a)) (c - a)) as [L|L].
  - pose proof (sqrt_pos (u * (b - a) * (c - a))).
    assert (sqrt (u * (b - a) * (c - a)) <= c - a); [|lra].
    apply LawsTriangular.sqrt_le_sq; [exact R1|lra|]. nra.
  - pose proof (sqrt_pos ((b - a - u * (b - a)) * (b - c))).
    assert (sqrt ((b - a - u * (b - a)) * (b - c)) <= b - c); [|lra].
    apply LawsTriangular.sqrt_le_sq; [exact R2|lra|]. nra.
Qed.
Theorem triangular_in_range t mn mx mode ws e rest x :
  dyR mn < dyR mx -> dyR mn <= dyR mode <= dyR mx -> Forall word ws ->
  evals (triangular t mn mx mode ws) (e, rest) -> evalX e = Xreal x -> dyR mn <= x <= dyR mx.
Proof.
  intros Hab Hc Hw E V. destruct ws as [|w ws']; [inversion E|]. inversion Hw as [|? ? Hb _]; subst.
  destruct (LawsTriangular.triangular_value t mn mx mode w ws') as [_ H]. destruct (H _ E) as [_ H2].
  cbn [fst] in H2. rewrite H2 in V. injection V as <-.
  apply Q_tri_range; auto. apply uR_std_range, Hb.
Qed.

(* Pert = min + Beta(v, w) * (max - min) in (min, max); the Beta parameters are 1 + shape * d / range with
   d = mode - min and d = max - mode *)
Lemma pos_pert_par shape d range S D Rg :
  evalX shape = Xreal S -> evalX d = Xreal D -> evalX range = Xreal Rg -> 0 <= S -> 0 <= D -> 0 < Rg ->
  pos (one +. shape *. d /. range).
Proof.
  intros Es Ed Er HS HD HR. exists (1 + S * D / Rg). cbn [evalX xbin].
  rewrite Es, Ed, Er, one_eval. cbn [Xmul]. unfold Xdiv'. rewrite is_zero_false by lra. split; [reflexivity|].
  pose proof (div_ge_0 _ _ HR (Rmult_le_pos _ _ HS HD)). lra.
Qed.
Lemma dysub_eval a b : evalX (dyx a -. dyx b) = Xreal (dyR a - dyR b).
Proof. cbn [evalX xbin]. rewrite !dyx_eval. reflexivity. Qed.

Theorem pert_in_range t mn mx mode shape ws e rest x :
  dyR mn < dyR mx -> dyR mn <= dyR mode <= dyR mx -> 0 <= dyR shape ->
  evals (pert t mn mx mode shape ws) (e, rest) -> evalX e = Xreal x -> dyR mn <= x <= dyR mx.
Proof.
  intros Hab Hc Hs E. refine (allsem_elim (fun p => forall y, evalX (fst p) = Xreal y -> dyR mn <= y <= dyR mx) _ _ _ E x).
  unfold pert. sstep. intros ? ? _ _. sstep. intros ? ? _ _.
  eapply allsem_sbind; [apply beta_e_leaves|]. intros b ws' U. sstep. intros z V.
  apply add_real in V. destruct V as (p & l & Ep & El & ->).
  apply mul_real in Ep. destruct Ep as (rb & r & Eb & Er & ->).
  rewrite dyx_eval in El. rewrite dysub_eval in Er. injection El as <-. injection Er as <-.
  assert (0 < rb < 1) as B; [|nra].
  refine (unit_form_range _ _ _ _ _ _ U Eb);
    apply (pos_pert_par _ _ _ _ _ _ (dyx_eval _) (dysub_eval _ _) (dysub_eval _ _)); lra.
Qed.
