(* C14 proofs: sampling is a pure function of (distribution value, RNG stream).
   All statements are parametric in D, O, P, samp, build. *)
From Coq Require Import ZArith List Bool Lia.
From RD Require Import Model.Pure.
Import ListNotations.
Open Scope Z_scope.

Lemma upd_same {A} (f : nat -> A) k v : upd f k v k = v.
Proof. unfold upd. now rewrite Nat.eqb_refl. Qed.

Lemma upd_other {A} (f : nat -> A) k v i : i <> k -> upd f k v i = f i.
Proof. unfold upd. intros H. apply Nat.eqb_neq in H. now rewrite H. Qed.

Lemma filter_map_const {A B} (p : B -> bool) (f : A -> B) (b : bool) l :
  (forall x, p (f x) = b) -> filter p (map f l) = if b then map f l else [].
Proof.
  intros H. induction l as [|x l IH]; simpl.
  - now destruct b.
  - rewrite H, IH. now destruct b.
Qed.

Section PureProofs.
  Variables D O P : Type.
  Variable samp : D -> list Z -> option (O * list Z).
  Variable build : P -> option D.

  Local Notation stepW := (step samp build).
  Local Notation runW := (run samp build).
  Local Notation sampleN := (sample_n samp).
  Local Notation wld := (world D).
  Local Notation evt := (event O).
  Local Notation opr := (op P).

  Lemma step_sample_some (w : wld) k s o r :
    samp (objs w k) (streams w s) = Some (o, r) ->
    stepW w (OpSample k s) =
    (mkWorld (objs w) (upd (streams w) s r), [mkEvent k s o (used (streams w s) r)]).
  Proof. intros H. simpl. now rewrite H. Qed.

  Lemma step_sample_none (w : wld) k s :
    samp (objs w k) (streams w s) = None -> stepW w (OpSample k s) = (w, []).
  Proof. intros H. simpl. now rewrite H. Qed.

  Lemma run_cons (w : wld) o ops :
    runW w (o :: ops) =
    (fst (runW (fst (stepW w o)) ops), snd (stepW w o) ++ snd (runW (fst (stepW w o)) ops)).
  Proof. reflexivity. Qed.

  Lemma run_app (ops1 ops2 : list opr) : forall w : wld,
    runW w (ops1 ++ ops2) =
    (fst (runW (fst (runW w ops1)) ops2), snd (runW w ops1) ++ snd (runW (fst (runW w ops1)) ops2)).
  Proof.
    induction ops1 as [|o ops1 IH]; intros w.
    - simpl. now destruct (runW w ops2).
    - rewrite <- app_comm_cons, !run_cons, IH. simpl. now rewrite app_assoc.
  Qed.

  Lemma sample_n_none d ws n : samp d ws = None -> sampleN d ws n = ([], ws).
  Proof. intros H. destruct n; simpl; [|rewrite H]; reflexivity. Qed.

  Lemma sample_n_S_some d ws n o r : samp d ws = Some (o, r) ->
    sampleN d ws (S n) = ((o, used ws r) :: fst (sampleN d r n), snd (sampleN d r n)).
  Proof. intros H. simpl. now rewrite H. Qed.

  Theorem sample_deterministic : forall (w1 w2 : wld) k1 k2 s1 s2,
    objs w1 k1 = objs w2 k2 -> streams w1 s1 = streams w2 s2 ->
    outputs (snd (stepW w1 (OpSample k1 s1))) = outputs (snd (stepW w2 (OpSample k2 s2))) /\
    streams (fst (stepW w1 (OpSample k1 s1))) s1 = streams (fst (stepW w2 (OpSample k2 s2))) s2.
  Proof.
    intros w1 w2 k1 k2 s1 s2 Hd Hs. simpl. rewrite Hd, Hs.
    destruct (samp (objs w2 k2) (streams w2 s2)) as [[o r]|]; simpl.
    - rewrite !upd_same. auto.
    - auto.
  Qed.

  Theorem sample_n_deterministic : forall d1 d2 ws1 ws2 n,
    d1 = d2 -> ws1 = ws2 -> sampleN d1 ws1 n = sampleN d2 ws2 n.
  Proof. intros; subst; reflexivity. Qed.

  Theorem sample_leaves_dist : forall (w : wld) k s, objs (fst (stepW w (OpSample k s))) = objs w.
  Proof.
    intros w k s. simpl. destruct (samp (objs w k) (streams w s)) as [[o r]|]; reflexivity.
  Qed.

  Theorem sampling_history_leaves_dist : forall (ops : list opr) (w : wld),
    forallb is_sampling ops = true -> objs (fst (runW w ops)) = objs w.
  Proof.
    induction ops as [|o ops IH]; intros w H; [reflexivity|].
    simpl in H. apply andb_true_iff in H as [H1 H2].
    rewrite run_cons. cbn [fst]. rewrite (IH _ H2).
    destruct o; try discriminate; [apply sample_leaves_dist|reflexivity].
  Qed.

  Lemma step_other_stream : forall (w : wld) o s,
    match o with
    | OpSample _ s' => s' <> s
    | OpIter _ s' _ => s' <> s
    | _ => True
    end -> streams (fst (stepW w o)) s = streams w s.
  Proof.
    intros w [k s'|src dst|k p|k s' n] s H; simpl.
    - destruct (samp (objs w k) (streams w s')) as [[o r]|]; simpl; auto.
      apply upd_other. auto.
    - reflexivity.
    - destruct (build p); reflexivity.
    - apply upd_other. auto.
  Qed.

  (* sample_iter().take(n) = n successive samples *)
  Theorem iter_eq_repeat : forall n (w : wld) k s,
    snd (stepW w (OpIter k s n)) = snd (runW w (repeat (OpSample k s) n)) /\
    world_eq (fst (stepW w (OpIter k s n))) (fst (runW w (repeat (OpSample k s) n))).
  Proof.
    induction n as [|n IH]; intros w k s.
    - simpl. split; [reflexivity|]. split; intros i; simpl; [reflexivity|].
      unfold upd. now destruct (Nat.eqb_spec i s) as [->|].
    - cbn [repeat]. rewrite run_cons.
      destruct (samp (objs w k) (streams w s)) as [[o r]|] eqn:E.
      + rewrite (step_sample_some _ _ _ _ _ E). cbn [fst snd].
        destruct (IH (mkWorld (objs w) (upd (streams w) s r)) k s) as [A [B1 B2]].
        rewrite <- A. cbn [step]. rewrite (sample_n_S_some _ _ n _ _ E).
        cbn [fst snd objs streams map app]. rewrite upd_same. split; [reflexivity|].
        split; intros i.
        * rewrite <- B1. reflexivity.
        * rewrite <- B2. simpl. rewrite upd_same. unfold upd.
          destruct (Nat.eqb i s); reflexivity.
      + (* on an exhausted stream n + 1 draws do what n do *)
        rewrite (step_sample_none _ _ _ E).
        replace (stepW w (OpIter k s (S n))) with (stepW w (OpIter k s n))
          by (cbn [step]; now rewrite !(sample_n_none _ _ _ E)).
        exact (IH w k s).
  Qed.

  (* what n samples of object k from stream s produce, and where they leave the
     stream, is sample_n of the object's value and the stream: nothing else of the
     world enters *)
  Lemma run_repeat_sample n (w : wld) k s :
    outputs (snd (runW w (repeat (OpSample k s) n))) =
    map fst (fst (sampleN (objs w k) (streams w s) n)) /\
    streams (fst (runW w (repeat (OpSample k s) n))) s =
    snd (sampleN (objs w k) (streams w s) n).
  Proof.
    destruct (iter_eq_repeat n w k s) as [A [_ B]]. rewrite <- A, <- B. simpl.
    rewrite upd_same. unfold outputs. rewrite map_map. split; reflexivity.
  Qed.

  Theorem same_dist_same_sequence : forall n (w1 w2 : wld) k1 k2 s1 s2,
    objs w1 k1 = objs w2 k2 -> streams w1 s1 = streams w2 s2 ->
    outputs (snd (runW w1 (repeat (OpSample k1 s1) n))) =
    outputs (snd (runW w2 (repeat (OpSample k2 s2) n))) /\
    streams (fst (runW w1 (repeat (OpSample k1 s1) n))) s1 =
    streams (fst (runW w2 (repeat (OpSample k2 s2) n))) s2.
  Proof.
    intros n w1 w2 k1 k2 s1 s2 Hd Hs.
    destruct (run_repeat_sample n w1 k1 s1) as [-> ->].
    destruct (run_repeat_sample n w2 k2 s2) as [-> ->].
    rewrite Hd, Hs. auto.
  Qed.

  Lemma clone_objs (w : wld) src dst :
    objs (fst (stepW w (OpClone src dst))) src = objs (fst (stepW w (OpClone src dst))) dst.
  Proof. simpl. rewrite upd_same. unfold upd. destruct (Nat.eqb src dst); reflexivity. Qed.

  (* after dst := clone(src), sampling src and dst on equal streams gives the
     same output sequence (and leaves the streams in the same position) *)
  Theorem clone_same_sequence : forall (w : wld) src dst s1 s2 n,
    streams w s1 = streams w s2 ->
    let w' := fst (stepW w (OpClone src dst)) in
    outputs (snd (runW w' (repeat (OpSample src s1) n))) =
    outputs (snd (runW w' (repeat (OpSample dst s2) n))) /\
    streams (fst (runW w' (repeat (OpSample src s1) n))) s1 =
    streams (fst (runW w' (repeat (OpSample dst s2) n))) s2.
  Proof.
    intros w src dst s1 s2 n Hs w'.
    apply same_dist_same_sequence; [apply clone_objs|exact Hs].
  Qed.

  (* the clone keeps producing the same sequence even if the original is then
     sampled in between: sampling never changes an object *)
  Theorem clone_same_sequence_interleaved : forall (w : wld) src dst s1 s2 (mid : list opr) n,
    s1 <> s2 ->
    streams w s1 = streams w s2 ->
    forallb is_sampling mid = true ->
    Forall (fun o => match o with
                     | OpSample _ s' => s' <> s2
                     | OpIter _ s' _ => s' <> s2
                     | _ => True end) mid ->
    let w' := fst (stepW w (OpClone src dst)) in
    let w'' := fst (runW w' mid) in
    outputs (snd (runW w' (repeat (OpSample src s1) n))) =
    outputs (snd (runW w'' (repeat (OpSample dst s2) n))).
  Proof.
    intros w src dst s1 s2 mid n Hne Hs Hmid Hfree w' w''.
    apply same_dist_same_sequence.
    - unfold w''. rewrite (sampling_history_leaves_dist mid w' Hmid). apply clone_objs.
    - transitivity (streams w' s2); [exact Hs|].
      unfold w''. clear w'' Hmid. generalize w'. induction Hfree as [|o mid Ho _ IH]; intros w0.
      + reflexivity.
      + rewrite run_cons. cbn [fst]. rewrite <- IH. symmetry.
        apply step_other_stream. exact Ho.
  Qed.

  (* two objects built from the same parameters are the same value, hence produce
     the same sequences *)
  Theorem rebuild_same_sequence : forall p d1 d2 ws n,
    build p = Some d1 -> build p = Some d2 -> sampleN d1 ws n = sampleN d2 ws n.
  Proof. intros p d1 d2 ws n H1 H2. rewrite H1 in H2. now injection H2 as ->. Qed.

  Theorem rebuild_same_sequence_world : forall (w1 w2 : wld) k1 k2 p d s1 s2 n,
    build p = Some d ->
    streams w1 s1 = streams w2 s2 ->
    let w1' := fst (stepW w1 (OpRebuild k1 p)) in
    let w2' := fst (stepW w2 (OpRebuild k2 p)) in
    outputs (snd (runW w1' (repeat (OpSample k1 s1) n))) =
    outputs (snd (runW w2' (repeat (OpSample k2 s2) n))) /\
    streams (fst (runW w1' (repeat (OpSample k1 s1) n))) s1 =
    streams (fst (runW w2' (repeat (OpSample k2 s2) n))) s2.
  Proof.
    intros w1 w2 k1 k2 p d s1 s2 n Hb Hs w1' w2'.
    apply same_dist_same_sequence; unfold w1', w2'; simpl; rewrite Hb;
      [simpl; now rewrite !upd_same|exact Hs].
  Qed.

  Lemma isolatedb_spec k s (o : opr) : isolatedb k s o = true <-> isolated k s o.
  Proof.
    destruct o as [k' s'|src dst|k' p|k' s' n]; simpl; [| |tauto|];
      rewrite orb_true_iff, negb_true_iff, Nat.eqb_eq, Nat.eqb_neq; lia.
  Qed.

  (* One step seen from (k, s): an operation of k on s does the same in any world
     that agrees on object k and stream s; any other isolated operation leaves no
     event of (k, s) and changes neither. *)
  Lemma step_projection k s (o : opr) (w w' : wld) :
    objs w k = objs w' k -> streams w s = streams w' s -> isolated k s o ->
    let w1 := fst (stepW w o) in
    let w1' := if relevant k s o then fst (stepW w' o) else w' in
    filter (on_ks k s) (snd (stepW w o)) = (if relevant k s o then snd (stepW w' o) else []) /\
    objs w1 k = objs w1' k /\ streams w1 s = streams w1' s.
  Proof.
    intros Hd Hs Hiso.
    destruct o as [k' s'|src dst|k' p|k' s' n]; cbn [relevant isolated] in *.
    - (* OpSample *)
      destruct (Nat.eqb_spec s' s) as [->|Ns].
      + rewrite (Hiso eq_refl), Nat.eqb_refl. simpl. rewrite <- Hd, <- Hs.
        destruct (samp (objs w k) (streams w s)) as [[o r]|]; simpl; auto.
        unfold on_ks. simpl. rewrite !Nat.eqb_refl, !upd_same. auto.
      + rewrite andb_false_r. simpl.
        destruct (samp (objs w k') (streams w s')) as [[o r]|]; simpl; auto.
        unfold on_ks. simpl. rewrite (proj2 (Nat.eqb_neq s' s) Ns), andb_false_r.
        rewrite upd_other by auto. auto.
    - (* OpClone *)
      simpl. split; [reflexivity|]. split; [|exact Hs].
      destruct (Nat.eq_dec dst k) as [->|E].
      + rewrite upd_same, (Hiso eq_refl). exact Hd.
      + rewrite upd_other by auto. exact Hd.
    - (* OpRebuild *)
      destruct (Nat.eqb_spec k' k) as [->|Nk]; simpl;
        destruct (build p); simpl; rewrite ?upd_same, ?upd_other by auto; auto.
    - (* OpIter *)
      destruct (Nat.eqb_spec s' s) as [->|Ns].
      + rewrite (Hiso eq_refl), Nat.eqb_refl. simpl. rewrite <- Hd, <- Hs, !upd_same.
        split; [|auto].
        apply (filter_map_const _ _ true).
        intros x. unfold on_ks. simpl. now rewrite !Nat.eqb_refl.
      + rewrite andb_false_r. simpl. rewrite upd_other by auto.
        split; [|auto].
        apply (filter_map_const _ _ false).
        intros x. unfold on_ks. simpl. now rewrite (proj2 (Nat.eqb_neq s' s) Ns), andb_false_r.
  Qed.

  Lemma run_projection k s (ops : list opr) : forall (w w' : wld),
    objs w k = objs w' k -> streams w s = streams w' s -> Forall (isolated k s) ops ->
    filter (on_ks k s) (snd (runW w ops)) = snd (runW w' (filter (relevant k s) ops)) /\
    objs (fst (runW w ops)) k = objs (fst (runW w' (filter (relevant k s) ops))) k /\
    streams (fst (runW w ops)) s = streams (fst (runW w' (filter (relevant k s) ops))) s.
  Proof.
    induction ops as [|o ops IH]; intros w w' Hd Hs Hiso.
    - simpl. auto.
    - inversion Hiso as [|? ? Ho Hrest]; subst.
      destruct (step_projection k s o w w' Hd Hs Ho) as (A & B & C).
      destruct (IH _ _ B C Hrest) as (A' & B' & C').
      rewrite run_cons. cbn [fst snd filter]. rewrite filter_app, A, A'.
      destruct (relevant k s o); [rewrite run_cons|]; auto.
  Qed.

  (* The outputs object k produces from its own stream s (a stream nobody else
     draws from, k not being overwritten by a copy of another object) are exactly
     those of the history restricted to the operations on (k, s), whatever else
     happens in between -- including events' consumption counts, and the final
     object value and stream position agree as well. *)
  Theorem interleaving_independent : forall (ops : list opr) (w : wld) k s,
    Forall (isolated k s) ops ->
    filter (on_ks k s) (snd (runW w ops)) = snd (runW w (filter (relevant k s) ops)) /\
    objs (fst (runW w ops)) k = objs (fst (runW w (filter (relevant k s) ops))) k /\
    streams (fst (runW w ops)) s = streams (fst (runW w (filter (relevant k s) ops))) s.
  Proof. intros ops w k s H. apply run_projection; auto. Qed.

  Corollary interleaving_independent_outputs : forall (ops : list opr) (w : wld) k s,
    Forall (isolated k s) ops ->
    outputs (filter (on_ks k s) (snd (runW w ops))) =
    outputs (snd (runW w (filter (relevant k s) ops))).
  Proof. intros ops w k s H. now rewrite (proj1 (interleaving_independent ops w k s H)). Qed.

  (* the rest of the world does not matter either: only objs k and streams s do *)
  Corollary interleaving_independent_worlds : forall (ops : list opr) (w w' : wld) k s,
    objs w k = objs w' k -> streams w s = streams w' s ->
    Forall (isolated k s) ops ->
    filter (on_ks k s) (snd (runW w ops)) = filter (on_ks k s) (snd (runW w' ops)).
  Proof.
    intros ops w w' k s Hd Hs H.
    rewrite (proj1 (run_projection k s ops w w' Hd Hs H)).
    now rewrite (proj1 (run_projection k s ops w' w' eq_refl eq_refl H)).
  Qed.

  Lemma consumed_on_app s (a b : list evt) :
    consumed_on s (a ++ b) = consumed_on s a + consumed_on s b.
  Proof.
    induction a as [|e a IH]; simpl; [reflexivity|].
    rewrite IH. destruct (Nat.eqb (ev_stream e) s); lia.
  Qed.

  Lemma consumed_on_iter s k s' (l : list (O * Z)) :
    consumed_on s (map (fun oz => mkEvent k s' (fst oz) (snd oz)) l) =
    if Nat.eqb s' s then fold_right (fun oz acc => snd oz + acc) 0 l else 0.
  Proof.
    induction l as [|x l IH]; simpl.
    - now destruct (Nat.eqb s' s).
    - rewrite IH. destruct (Nat.eqb s' s); reflexivity.
  Qed.

  (* telescoping: the consumptions of n samples add up to the length difference *)
  Lemma sample_n_used d : forall n ws,
    fold_right (fun (oz : O * Z) acc => snd oz + acc) 0 (fst (sampleN d ws n)) =
    used ws (snd (sampleN d ws n)).
  Proof.
    induction n as [|n IH]; intros ws.
    - simpl. unfold used. lia.
    - destruct (samp d ws) as [[o r]|] eqn:E.
      + rewrite (sample_n_S_some _ _ n _ _ E). cbn [fst snd fold_right].
        rewrite IH. unfold used. lia.
      + rewrite (sample_n_none _ _ _ E). simpl. unfold used. lia.
  Qed.

  Lemma step_position (w : wld) (o : opr) s :
    Z.of_nat (List.length (streams (fst (stepW w o)) s)) =
    Z.of_nat (List.length (streams w s)) - consumed_on s (snd (stepW w o)).
  Proof.
    destruct o as [k s'|src dst|k p|k s' n]; simpl.
    - destruct (samp (objs w k) (streams w s')) as [[o r]|]; simpl; [|lia].
      destruct (Nat.eqb_spec s' s) as [->|E].
      + rewrite upd_same. unfold used. lia.
      + rewrite upd_other by auto. lia.
    - lia.
    - destruct (build p); simpl; lia.
    - rewrite consumed_on_iter. destruct (Nat.eqb_spec s' s) as [->|E].
      + rewrite upd_same, sample_n_used. unfold used. lia.
      + rewrite upd_other by auto. lia.
  Qed.

  (* The number of words a history consumes on stream s is the sum of the
     consumptions of its samples on s (holds for ANY sampler function). *)
  Theorem stream_position : forall (ops : list opr) (w : wld) s,
    Z.of_nat (List.length (streams (fst (runW w ops)) s)) =
    Z.of_nat (List.length (streams w s)) - consumed_on s (snd (runW w ops)).
  Proof.
    induction ops as [|o ops IH]; intros w s.
    - simpl. lia.
    - rewrite run_cons. cbn [fst snd]. rewrite IH, consumed_on_app, step_position. lia.
  Qed.

  (* If moreover the sampler only returns suffixes of its input (it reads words
     from the front), the final stream is the initial one with exactly that many
     words removed from the front. *)
  Lemma sample_n_suffix : suffix_ok samp -> forall d n ws,
    exists pre, ws = pre ++ snd (sampleN d ws n).
  Proof.
    intros Hsuf d. induction n as [|n IH]; intros ws.
    - exists []. reflexivity.
    - destruct (samp d ws) as [[o r]|] eqn:E.
      + rewrite (sample_n_S_some _ _ n _ _ E). cbn [snd].
        destruct (Hsuf _ _ _ _ E) as [p1 H1]. destruct (IH r) as [p2 H2].
        exists (p1 ++ p2). rewrite <- app_assoc, <- H2. exact H1.
      + rewrite (sample_n_none _ _ _ E). exists []. reflexivity.
  Qed.

  Lemma step_suffix : suffix_ok samp -> forall (w : wld) (o : opr) s,
    exists pre, streams w s = pre ++ streams (fst (stepW w o)) s.
  Proof.
    intros Hsuf w o s. destruct o as [k s'|src dst|k p|k s' n]; simpl.
    - destruct (samp (objs w k) (streams w s')) as [[o r]|] eqn:E; simpl.
      + destruct (Nat.eq_dec s s') as [->|N].
        * rewrite upd_same. exact (Hsuf _ _ _ _ E).
        * rewrite upd_other by auto. exists []. reflexivity.
      + exists []. reflexivity.
    - exists []. reflexivity.
    - destruct (build p); exists []; reflexivity.
    - destruct (Nat.eq_dec s s') as [->|N].
      + rewrite upd_same. apply sample_n_suffix. exact Hsuf.
      + rewrite upd_other by auto. exists []. reflexivity.
  Qed.

  Theorem stream_position_prefix : suffix_ok samp -> forall (ops : list opr) (w : wld) s,
    exists pre,
      streams w s = pre ++ streams (fst (runW w ops)) s /\
      Z.of_nat (List.length pre) = consumed_on s (snd (runW w ops)).
  Proof.
    intros Hsuf ops w s.
    assert (H : exists pre, streams w s = pre ++ streams (fst (runW w ops)) s).
    { revert w. induction ops as [|o ops IH]; intros w.
      - exists []. reflexivity.
      - rewrite run_cons. cbn [fst].
        destruct (step_suffix Hsuf w o s) as [p1 H1].
        destruct (IH (fst (stepW w o))) as [p2 H2].
        exists (p1 ++ p2). rewrite <- app_assoc, <- H2. exact H1. }
    destruct H as [pre H]. exists pre. split; [exact H|].
    pose proof (stream_position ops w s) as HP.
    rewrite H in HP at 1. rewrite app_length in HP. lia.
  Qed.
End PureProofs.

(* what the check of the regenerated signature facts amounts to *)
Lemma pure_sigs_true : forall forbid_unsafe recv_ok bad_tokens statics,
  pure_sigs forbid_unsafe recv_ok bad_tokens statics = true <->
  forbid_unsafe = true /\
  (forall b, In b recv_ok -> b = true) /\
  bad_tokens = [] /\
  (forall f n m, In (f, n, m) statics -> m = false).
Proof.
  intros fu ro bt st. unfold pure_sigs.
  rewrite !andb_true_iff, !forallb_forall. split.
  - intros [[[H1 H2] H3] H4]. repeat split; auto.
    + destruct bt; [reflexivity|discriminate].
    + intros f n m HI. specialize (H4 _ HI). simpl in H4. now destruct m.
  - intros (H1 & H2 & H3 & H4). subst bt. repeat split; auto.
    intros [[f n] m] HI. simpl. now rewrite (H4 _ _ _ HI).
Qed.
