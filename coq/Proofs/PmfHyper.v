(* Proofs/PmfHyper.v — identities behind Hypergeometric (hypergeometric.rs).

   new (162-193), with N = total_population_size, K = population_with_feature, n = sample_size:
       let (mut sign_x, mut offset_x) = (1, 0);
       let (n1, n2) = if K > N - K { sign_x = -1; offset_x = n; (N - K, K) } else { (K, N - K) };
       let k = if n <= N / 2 { n } else { offset_x += n1 * sign_x; sign_x *= -1; N - n };
   new (207-218): HIN start  (initial_p, initial_x) =
       if k < n2 { (n2! (N-k)! / (N! (n2-k)!), 0) } else { (n1! k! / (N! (k-n2)!), k - n2) }
   sample (313-318): while u > p && x < min(n1,k) { u -= p;
       p *= (n1 - x) * (k - x);  p /= (x + 1) * (n2 - k + 1 + x);  x += 1 }
   sample (445): (offset_x + sign_x * x) as u64                                               *)
From Coq Require Import Reals Lra Lia.
From RD Require Import Proofs.PmfBinomial.
Open Scope R_scope.

(* pmf of the number of featured items among n drawn without replacement from N, K featured *)
Definition hyper_pmf (N K n x : nat) : R := C K x * C (N - K) (n - x) / C N n.

Lemma hyper_pmf_split : forall n1 n2 k x,
  hyper_pmf (n1 + n2) n1 k x = C n1 x * C n2 (k - x) / C (n1 + n2) k.
Proof. intros. unfold hyper_pmf. rewrite Nat.add_comm, Nat.add_sub. reflexivity. Qed.

(* swap featured / unfeatured: X ~ H(N,K,n)  <->  n - X ~ H(N,N-K,n) *)
Theorem hyper_sym_K : forall N K n x, (K <= N)%nat -> (x <= n)%nat ->
  hyper_pmf N K n x = hyper_pmf N (N - K) n (n - x).
Proof.
  intros N K n x HK Hx. unfold hyper_pmf.
  replace (N - (N - K))%nat with K by lia. replace (n - (n - x))%nat with x by lia.
  unfold Rdiv. ring.
Qed.

(* swap drawn / left behind: X ~ H(N,K,n)  <->  K - X ~ H(N,K,N-n) *)
Theorem hyper_sym_n : forall N K n x, (K <= N)%nat -> (n <= N)%nat ->
  (x <= K)%nat -> (x <= n)%nat -> (n - x <= N - K)%nat ->
  hyper_pmf N K n x = hyper_pmf N K (N - n) (K - x).
Proof.
  intros N K n x HK Hn HxK Hxn Hc. unfold hyper_pmf.
  rewrite <- (pascal_step1 K x HxK). rewrite <- (pascal_step1 N n Hn).
  replace (N - n - (K - x))%nat with ((N - K) - (n - x))%nat by lia.
  rewrite <- (pascal_step1 (N - K) (n - x) Hc). reflexivity.
Qed.

Open Scope Z_scope.

(* returns (n1, n2, k, sign_x, offset_x) *)
Definition hyper_setup (N K n : Z) : Z * Z * Z * Z * Z :=
  let '(sign_x, offset_x, n1, n2) :=
    if K >? N - K then (-1, n, N - K, K) else (1, 0, K, N - K) in
  if n <=? N / 2 then (n1, n2, n, sign_x, offset_x)
  else (n1, n2, N - n, sign_x * -1, offset_x + n1 * sign_x).

Lemma hyper_setup_cases : forall N K n n1 n2 k sg off,
  hyper_setup N K n = (n1, n2, k, sg, off) ->
  (K <= N - K /\ n <= N / 2 /\ n1 = K /\ n2 = N - K /\ k = n /\ sg = 1 /\ off = 0) \/
  (K > N - K /\ n <= N / 2 /\ n1 = N - K /\ n2 = K /\ k = n /\ sg = -1 /\ off = n) \/
  (K <= N - K /\ n > N / 2 /\ n1 = K /\ n2 = N - K /\ k = N - n /\ sg = -1 /\ off = K) \/
  (K > N - K /\ n > N / 2 /\ n1 = N - K /\ n2 = K /\ k = N - n /\ sg = 1 /\ off = n - (N - K)).
Proof.
  intros N K n n1 n2 k sg off. unfold hyper_setup.
  destruct (Z.gtb_spec K (N - K)); destruct (Z.leb_spec n (N / 2)); intros [= <- <- <- <- <-].
  - right; left. repeat split; lia.
  - right; right; right. repeat split; lia.
  - left. repeat split; lia.
  - right; right; left. repeat split; lia.
Qed.

(* the reduced problem has n1 <= n2 and k at most half the population (tie rule n <= N/2) *)
Theorem hyper_reduced_params : forall N K n n1 n2 k sg off,
  0 <= K <= N -> 0 <= n <= N -> hyper_setup N K n = (n1, n2, k, sg, off) ->
  n1 + n2 = N /\ 0 <= n1 <= n2 /\ 0 <= k /\ 2 * k <= N /\ k <= N / 2 /\ (sg = 1 \/ sg = -1).
Proof.
  intros N K n n1 n2 k sg off HK Hn H. apply hyper_setup_cases in H.
  assert (Hd := Z.div_mod N 2 ltac:(lia)). assert (Hm := Z.mod_pos_bound N 2 ltac:(lia)).
  destruct H as [H|[H|[H|H]]]; decompose [and] H; subst; repeat split; try lia.
Qed.

(* the supports are given with max and min; split into four bounds they cost lia no case analysis *)
Lemma support_split : forall a b c x,
  Z.max 0 a <= x <= Z.min b c <-> (0 <= x /\ a <= x) /\ x <= b /\ x <= c.
Proof. intros. rewrite Z.max_lub_iff, Z.min_glb_iff. reflexivity. Qed.

(* x |-> offset_x + sign_x * x maps the reduced support onto the original support, bijectively *)
Theorem hyper_reflect_bijection : forall N K n n1 n2 k sg off,
  0 <= K <= N -> 0 <= n <= N -> hyper_setup N K n = (n1, n2, k, sg, off) ->
  (forall x, Z.max 0 (k - n2) <= x <= Z.min n1 k ->
     Z.max 0 (n + K - N) <= off + sg * x <= Z.min n K) /\
  (forall y, Z.max 0 (n + K - N) <= y <= Z.min n K ->
     exists x, Z.max 0 (k - n2) <= x <= Z.min n1 k /\ off + sg * x = y) /\
  (forall x x', off + sg * x = off + sg * x' -> x = x').
Proof.
  intros N K n n1 n2 k sg off HK Hn H. apply hyper_setup_cases in H.
  split; [|split].
  - intros x Hx. apply support_split in Hx. apply support_split.
    destruct H as [H|[H|[H|H]]]; decompose [and] H; subst; lia.
  - intros y Hy. apply support_split in Hy.
    destruct H as [H|[H|[H|H]]]; decompose [and] H; subst.
    + exists y. rewrite support_split. lia.
    + exists (n - y). rewrite support_split. lia.
    + exists (K - y). rewrite support_split. lia.
    + exists (y - (n - (N - K))). rewrite support_split. lia.
  - intros x x' E. destruct H as [H|[H|[H|H]]]; decompose [and] H; subst; lia.
Qed.

(* and it transports the pmf: P_orig(offset_x + sign_x * x) = P_reduced(x) *)
Theorem hyper_reflect_pmf : forall (N K n : nat) n1 n2 k sg off,
  (K <= N)%nat -> (n <= N)%nat ->
  hyper_setup (Z.of_nat N) (Z.of_nat K) (Z.of_nat n) = (n1, n2, k, sg, off) ->
  forall x : nat, Z.max 0 (k - n2) <= Z.of_nat x <= Z.min n1 k ->
  hyper_pmf N K n (Z.to_nat (off + sg * Z.of_nat x))
  = hyper_pmf (Z.to_nat (n1 + n2)) (Z.to_nat n1) (Z.to_nat k) x.
Proof.
  intros N K n n1 n2 k sg off HK Hn H x Hx. apply hyper_setup_cases in H.
  apply support_split in Hx.
  destruct H as [H|[H|[H|H]]]; decompose [and] H; subst; clear H.
  - f_equal; lia.
  - rewrite (hyper_sym_K N K n) by lia. f_equal; lia.
  - rewrite (hyper_sym_n N K n) by lia. f_equal; lia.
  - rewrite (hyper_sym_K N K n), (hyper_sym_n N (N - K) n) by lia. f_equal; lia.
Qed.

Open Scope R_scope.

Lemma C_step_down : forall n j, (S j <= n)%nat -> C n j * INR (n - j) = C n (S j) * INR (S j).
Proof. intros n j Hj. rewrite pascal_step3 by exact Hj. field. apply not_0_INR. lia. Qed.

Lemma hin_den_pos : forall n2 k x : nat, (x <= k)%nat -> (k - x <= n2)%nat ->
  0 < INR n2 - INR k + 1 + INR x.
Proof. intros n2 k x Hk H2. apply le_INR in H2. rewrite minus_INR in H2 by exact Hk. lra. Qed.

(* the update  p *= (n1 - x) * (k - x); p /= (x + 1) * (n2 - k + 1 + x)  *)
Theorem hin_recurrence : forall n1 n2 k x : nat,
  (S x <= n1)%nat -> (S x <= k)%nat -> (k - x <= n2)%nat ->
  hyper_pmf (n1 + n2) n1 k (S x)
  = hyper_pmf (n1 + n2) n1 k x * ((INR n1 - INR x) * (INR k - INR x))
      / ((INR x + 1) * (INR n2 - INR k + 1 + INR x)).
Proof.
  intros n1 n2 k x H1 Hk H2. rewrite !hyper_pmf_split.
  rewrite (pascal_step3 n1 x) by lia.
  replace (k - x)%nat with (S (k - S x)) by lia. rewrite (pascal_step3 n2 (k - S x)) by lia.
  rewrite !minus_INR, !S_INR, minus_INR, S_INR by lia.
  assert (Hd := hin_den_pos n2 k x ltac:(lia) H2). assert (HN := C_pos (n1 + n2) k).
  assert (Hx := pos_INR x). apply le_INR in Hk. rewrite S_INR in Hk.
  field. lra.
Qed.

Theorem hyper_pmf_pos : forall N K n x, 0 < hyper_pmf N K n x.
Proof.
  intros N K n x. apply Rdiv_lt_0_compat; [apply Rmult_lt_0_compat|]; apply C_pos.
Qed.

Theorem hin_ratio : forall n1 n2 k x : nat,
  (S x <= n1)%nat -> (S x <= k)%nat -> (k - x <= n2)%nat -> (k <= n1 + n2)%nat ->
  hyper_pmf (n1 + n2) n1 k (S x) / hyper_pmf (n1 + n2) n1 k x
  = (INR n1 - INR x) * (INR k - INR x) / ((INR x + 1) * (INR n2 - INR k + 1 + INR x)).
Proof.
  intros n1 n2 k x H1 Hk H2 _. rewrite hin_recurrence by assumption.
  assert (Hp := hyper_pmf_pos (n1 + n2) n1 k x).
  assert (Hd := hin_den_pos n2 k x ltac:(lia) H2). assert (Hx := pos_INR x).
  field. lra.
Qed.

(* the starting value of HIN (hypergeometric.rs:207-218) is the pmf at the lower end of the support *)
Theorem hin_initial_lo : forall n1 n2 k : nat, (k <= n2)%nat ->
  hyper_pmf (n1 + n2) n1 k 0
  = INR (fact n2) * INR (fact (n1 + n2 - k)) / (INR (fact (n1 + n2)) * INR (fact (n2 - k))).
Proof.
  intros n1 n2 k Hk. rewrite hyper_pmf_split. unfold C. rewrite !Nat.sub_0_r. simpl (INR (fact 0)).
  field. repeat split; apply INR_fact_neq_0.
Qed.

Theorem hin_initial_hi : forall n1 n2 k : nat, (n2 <= k)%nat -> (k <= n1 + n2)%nat ->
  hyper_pmf (n1 + n2) n1 k (k - n2)
  = INR (fact n1) * INR (fact k) / (INR (fact (n1 + n2)) * INR (fact (k - n2))).
Proof.
  intros n1 n2 k Hk HN. rewrite hyper_pmf_split. unfold C.
  replace (k - (k - n2))%nat with n2 by lia.
  replace (n1 - (k - n2))%nat with (n1 + n2 - k)%nat by lia. rewrite Nat.sub_diag.
  simpl (INR (fact 0)). field. repeat split; apply INR_fact_neq_0.
Qed.

Lemma hyper_pmf_def : forall N K n x, hyper_pmf N K n x = C K x * C (N - K) (n - x) / C N n.
Proof. reflexivity. Qed.

Lemma hyper_setup_def : forall N K n : Z,
  hyper_setup N K n =
  (let '(sign_x, offset_x, n1, n2) :=
     if (K >? N - K)%Z then ((-1)%Z, n, (N - K)%Z, K) else (1%Z, 0%Z, K, (N - K)%Z) in
   if (n <=? N / 2)%Z then (n1, n2, n, sign_x, offset_x)
   else (n1, n2, (N - n)%Z, (sign_x * -1)%Z, (offset_x + n1 * sign_x)%Z)).
Proof. reflexivity. Qed.
