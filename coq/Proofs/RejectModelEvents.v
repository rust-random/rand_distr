(* Proofs/RejectModelEvents.v — property C01 on the EXECUTABLE model of the Marsaglia-Tsang Gamma sampler
   (Model/Continuous.v: gamma_unscaled, the decision tree run against the crate): a proposal x (a standard
   normal value) with uniform u is returned EXACTLY when  0 < 1 + c x  and  ln u < x^2/2 + d (1 - v + ln v),
   v = (1 + c x)^3 - whether it was accepted by the quick test u < 1 - 0.0331 x^4 or by the exact test.
   With mt_identity / mt_envelope (Proofs/RejectGamma.v) this is the acceptance event whose accepted
   density is the Gamma(k) kernel.                                                                        *)
From Coq Require Import Reals List Lra Lia.
From Interval Require Import Xreal.
From RD Require Import Base.Expr Base.Run Model.Sampler Model.Continuous
  Proofs.LawsInvCdf Proofs.RunSound Proofs.Support Proofs.LoopBounds Proofs.RejectGamma
  Proofs.SupportDiscrete Proofs.SupportMore.
Open Scope Z_scope.
Open Scope sampler_scope.

Import ExprNotations.
Local Open Scope R_scope.

Definition cube (e : expr) : expr := e *. e *. e.

Section MT.
Variables (t : fty) (c d : expr) (C D : R).
Hypothesis Ec : evalX c = Xreal C.
Hypothesis Ed : evalX d = Xreal D.
Hypothesis HD : 2 / 3 <= D.
Hypothesis HC : C = 1 / sqrt (9 * D).

(* the exact acceptance event of a proposal (x, u) *)
Definition mt_event (X U : R) : Prop := 0 < 1 + C * X /\ ln U < mt_logacc D C X.

Lemma vcbrt_eval x X : evalX x = Xreal X -> evalX (one +. c *. x) = Xreal (1 + C * X).
Proof. intros Ex. cbn [evalX xbin]. rewrite one_eval, Ec, Ex. reflexivity. Qed.

(* the two tests of the code as real-number statements *)
Lemma squeeze_eval x X : evalX x = Xreal X ->
  evalX (one -. dec 331 4 *. (x *. x) *. (x *. x)) = Xreal (1 - 0.0331 * X ^ 4).
Proof.
  intros Ex. cbn [evalX xbin]. rewrite one_eval, dec_eval, Ex by lia. cbn. f_equal. change (IZR (10 ^ 4)) with 10000. lra.
Qed.
Lemma exact_eval x X : evalX x = Xreal X -> 0 < 1 + C * X ->
  evalX (dec 5 1 *. (x *. x) +. d *. (one -. cube (one +. c *. x) +. eln (cube (one +. c *. x)))) = Xreal (mt_logacc D C X).
Proof.
  intros Ex Hv.
  assert (Ev : evalX (cube (one +. c *. x)) = Xreal ((1 + C * X) ^ 3)).
  { unfold cube. cbn [evalX xbin]. rewrite one_eval, Ec, Ex. cbn. f_equal. ring. }
  cbn [evalX xbin]. rewrite (ln_eval _ _ Ev), Ev, dec_eval, Ex, Ed, one_eval by (try apply pow_lt; lia || lra).
  cbn. f_equal. unfold mt_logacc, mt_v. change (IZR (10 ^ 1)) with 10. simpl pow. field.
Qed.

(* every value the loop returns is an accepted proposal: soundness of acceptance, for every fuel and word list *)
Theorem gamma_unscaled_returns_accepted fuel : forall ws, List.Forall word ws ->
  allout (fun q => exists x X U, evalX x = Xreal X /\ fst q = cube (one +. c *. x) /\ 0 < U < 1 /\ mt_event X U)
         nopanic (gamma_unscaled fuel t c d ws).
Proof.
  induction fuel as [|f IH]; intros ws Hw; [exact nopanic2|].
  cbn [gamma_unscaled].
  apply allout_sbind with (P := fun q : expr * list Z => List.Forall word (snd q)) (Q := nopanic).
  - apply allout_spec. split.
    + intros [x ws1] E. exact (allsem_elim _ _ _ (std_normal_words t ws Hw) E).
    + intros code F. exact (allout_fails _ _ _ _ (std_normal_spec t ws) F).
  - auto.
  - intros x ws1 Hw1. cbn [snd] in Hw1. lstep.
    (* x is defined when 1 + c x is *)
    destruct (evalX x) as [|X] eqn:Ex.
    { intros v0 z0 Ev0 _. cbn [evalX xbin] in Ev0. rewrite Ex, one_eval, Ec in Ev0. discriminate Ev0. }
    apply (ask_values _ _ _ _ _ (vcbrt_eval x X Ex) (num_eval 0)).
    unfold rcmp. destruct (Rle_dec (1 + C * X) 0) as [Neg|Pos]; [apply IH, Hw1|].
    assert (0 < 1 + C * X) as Hv by lra.
    destruct Hw1 as [|w ws2 Hw0 Hws2]; lstep; [exact nopanic1|].
    destruct (u_open_range t w Hw0) as (U & EU & HU).
    assert (Acc : ln U < mt_logacc D C X ->
              exists x' X' U', evalX x' = Xreal X' /\ cube (one +. c *. x) = cube (one +. c *. x') /\ 0 < U' < 1 /\ mt_event X' U').
    { intros H. exists x, X, U. repeat split; assumption || apply HU. }
    apply (ask_values _ _ _ _ _ EU (squeeze_eval x X Ex)).
    unfold rcmp. destruct (Rlt_dec U (1 - 0.0331 * X ^ 4)) as [Sq|NSq]; lstep.
    + (* accepted by the quick test: the exact test holds as well *)
      apply Acc. rewrite HC. apply (mt_squeeze_test D X U HD); lra.
    + apply (ask_values _ _ _ _ _ (ln_eval _ U EU (proj1 HU)) (exact_eval x X Ex Hv)).
      unfold rcmp. destruct (Rlt_dec (ln U) (mt_logacc D C X)) as [A|_]; lstep; [exact (Acc A)|apply IH, Hws2].
Qed.

(* ... and a proposal in the acceptance event IS returned by the iteration that draws it (completeness) *)
Theorem gamma_unscaled_accepts f ws x X w ws' U :
  evals (std_normal t ws) (x, w :: ws') -> evalX x = Xreal X -> evalX (u_open t w) = Xreal U -> 0 < U < 1 ->
  mt_event X U -> evals (gamma_unscaled (S f) t c d ws) (cube (one +. c *. x), ws').
Proof.
  intros Ez Ex EU HU [Hv Acc]. cbn [gamma_unscaled]. unfold sbind at 1.
  eapply bind_evals; [exact Ez|]. cbn beta iota. cbn [sbind bind sask sret draw_open next_word].
  eapply EvAsk; [apply (vcbrt_eval x X Ex)|apply num_eval|].
  unfold rcmp at 1. destruct (Rle_dec (1 + C * X) 0) as [N|_]; [lra|]. cbn [sbind bind sask sret].
  eapply EvAsk; [exact EU|apply (squeeze_eval x X Ex)|].
  destruct (rcmp CLt U (1 - 0.0331 * X ^ 4)); [constructor|]. cbn [sbind bind sask sret].
  eapply EvAsk; [apply (ln_eval _ U EU), HU|apply (exact_eval x X Ex Hv)|].
  unfold rcmp. destruct (Rlt_dec (ln U) (mt_logacc D C X)) as [_|N]; [constructor|contradiction].
Qed.
End MT.

(* Cheng's BB (both shapes > 1) on the executable model: a pair (u1, u2) is returned EXACTLY when
   ln(u1^2 u2) <= r + alpha ln(alpha/(b+w))  (step 4, the exact test) - also when it was accepted by the
   quick tests of steps 2 and 3 (bb_squeeze2, bb_squeeze3).  bb_exact_test identifies this event with
   u2 <= C f(w)/g(w).                                                                                 *)
From RD Require Import Proofs.RejectBeta.

Section BB.
Variables (t : fty) (a b alpha beta gamma : expr) (A B BETA GAMMA : R).
Hypothesis Ea : evalX a = Xreal A.
Hypothesis Eb : evalX b = Xreal B.
Hypothesis Ealpha : evalX alpha = Xreal (A + B).
Hypothesis Ebeta : evalX beta = Xreal BETA.
Hypothesis Egamma : evalX gamma = Xreal GAMMA.
Hypothesis HA : 0 < A.
Hypothesis HB : 0 < B.

Definition bb_event (U1 U2 : R) : Prop :=
  ln (U1 * U1 * U2) <= bb_E A B (bb_R GAMMA (bb_V BETA U1)) (bb_W A BETA U1).

(* the quantities of one iteration and the two sides of its three tests *)
Section Step.
Variables (u1 u2 : expr) (U1 U2 : R).
Hypothesis Eu1 : evalX u1 = Xreal U1.
Hypothesis Eu2 : evalX u2 = Xreal U2.
Hypothesis HU1 : 0 < U1 < 1.
Hypothesis HU2 : 0 < U2 < 1.

Let v := beta *. eln (u1 /. (one -. u1)).
Let w := a *. eexp v.
Let z := u1 *. u1 *. u2.
Let r := gamma *. v -. ln4.
Let s := a +. r -. w.

Lemma bb_v_eval : evalX v = Xreal (bb_V BETA U1).
Proof.
  assert (E : evalX (u1 /. (one -. u1)) = Xreal (U1 / (1 - U1))).
  { cbn [evalX xbin]. rewrite Eu1, one_eval. apply Xdiv_nz. lra. }
  unfold v. cbn [evalX xbin]. rewrite Ebeta, (ln_eval _ _ E) by (apply Rdiv_lt_0_compat; lra). reflexivity.
Qed.
Lemma bb_w_eval : evalX w = Xreal (bb_W A BETA U1).
Proof. unfold w, eexp. cbn [evalX xbin xun]. rewrite Ea, bb_v_eval. reflexivity. Qed.
Lemma bb_z_pos : 0 < U1 * U1 * U2.
Proof. apply Rmult_lt_0_compat; [apply Rmult_lt_0_compat|]; lra. Qed.
Lemma bb_z_eval : evalX z = Xreal (U1 * U1 * U2).
Proof. unfold z. cbn [evalX xbin]. rewrite Eu1, Eu2. reflexivity. Qed.
Lemma bb_lnz_eval : evalX (eln z) = Xreal (ln (U1 * U1 * U2)).
Proof. exact (ln_eval _ _ bb_z_eval bb_z_pos). Qed.
Lemma bb_r_eval : evalX r = Xreal (bb_R GAMMA (bb_V BETA U1)).
Proof. unfold r, ln4. cbn [evalX xbin]. rewrite Egamma, bb_v_eval, (ln_eval _ 4 (num_eval 4)) by lra. reflexivity. Qed.
Lemma bb_s_eval : evalX s = Xreal (bb_S A (bb_R GAMMA (bb_V BETA U1)) (bb_W A BETA U1)).
Proof. unfold s. cbn [evalX xbin]. rewrite Ea, bb_r_eval, bb_w_eval. reflexivity. Qed.
Lemma bb_t2l_eval : evalX (s +. one +. ln5) = Xreal (bb_S A (bb_R GAMMA (bb_V BETA U1)) (bb_W A BETA U1) + 1 + ln 5).
Proof. unfold ln5. cbn [evalX xbin]. rewrite bb_s_eval, one_eval, (ln_eval _ 5 (num_eval 5)) by lra. reflexivity. Qed.
Lemma bb_t2r_eval : evalX (num 5 *. z) = Xreal (5 * (U1 * U1 * U2)).
Proof. cbn [evalX xbin]. rewrite num_eval, bb_z_eval. reflexivity. Qed.
Lemma bb_e_eval : evalX (r +. alpha *. eln (alpha /. (b +. w))) = Xreal (bb_E A B (bb_R GAMMA (bb_V BETA U1)) (bb_W A BETA U1)).
Proof.
  pose proof (bb_W_pos A BETA U1 HA) as WP.
  assert (E : evalX (alpha /. (b +. w)) = Xreal ((A + B) / (B + bb_W A BETA U1))).
  { cbn [evalX xbin]. rewrite Ealpha, Eb, bb_w_eval. apply Xdiv_nz. lra. }
  cbn [evalX xbin]. rewrite bb_r_eval, Ealpha, (ln_eval _ _ E) by (apply Rdiv_lt_0_compat; lra). reflexivity.
Qed.
End Step.

Definition bb_w_expr (u1 : expr) : expr := a *. eexp (beta *. eln (u1 /. (one -. u1))).

(* soundness of acceptance: every value returned by the BB loop is a*exp(v(u1)) for a pair (u1, u2) in the exact event *)
Theorem beta_bb_returns_accepted fuel : forall ws, List.Forall word ws ->
  allout (fun q => exists w1 w2 U1 U2, evalX (u_open t w1) = Xreal U1 /\ evalX (u_open t w2) = Xreal U2 /\
            0 < U1 < 1 /\ 0 < U2 < 1 /\ fst q = bb_w_expr (u_open t w1) /\ bb_event U1 U2)
         nopanic (beta_bb fuel t a b alpha beta gamma ws).
Proof.
  induction fuel as [|f IH]; intros ws Hw; [exact nopanic2|].
  destruct Hw as [|w1 ? Hw1 [|w2 ws Hw2 Hws]]; cbn [beta_bb]; cbv zeta; lstep; [exact nopanic1|exact nopanic1|].
  destruct (u_open_range t w1 Hw1) as (U1 & EU1 & HU1). destruct (u_open_range t w2 Hw2) as (U2 & EU2 & HU2).
  pose proof (bb_W_pos A BETA U1 HA) as WP. pose proof (bb_z_pos U1 U2 HU1 HU2) as ZP.
  assert (Acc : bb_event U1 U2 -> exists w1' w2' U1' U2', evalX (u_open t w1') = Xreal U1' /\ evalX (u_open t w2') = Xreal U2' /\
            0 < U1' < 1 /\ 0 < U2' < 1 /\ bb_w_expr (u_open t w1) = bb_w_expr (u_open t w1') /\ bb_event U1' U2').
  { intros H. exists w1, w2, U1, U2. repeat split; assumption || apply HU1 || apply HU2. }
  (* step 2 *)
  apply (ask_values _ _ _ _ _ (bb_t2l_eval _ U1 EU1 HU1) (bb_t2r_eval _ _ U1 U2 EU1 EU2)).
  unfold rcmp. destruct (Rle_dec _ _) as [G|_]; lstep; [apply Acc, (bb_squeeze2 A B _ _ _ HA HB WP ZP G)|].
  (* step 3 *)
  apply (ask_values _ _ _ _ _ (bb_s_eval _ U1 EU1 HU1) (bb_lnz_eval _ _ U1 U2 EU1 EU2 HU1 HU2)).
  unfold rcmp. destruct (Rle_dec _ _) as [G|_]; lstep; [apply Acc, (bb_squeeze3 A B _ _ _ HA HB WP G)|].
  (* step 4 *)
  apply (ask_values _ _ _ _ _ (bb_e_eval _ U1 EU1 HU1) (bb_lnz_eval _ _ U1 U2 EU1 EU2 HU1 HU2)).
  unfold rcmp. destruct (Rlt_dec _ _) as [_|G]; lstep; [apply IH, Hws|apply Acc, Rnot_lt_le, G].
Qed.

(* completeness: a pair in the exact event is returned by the iteration that draws it *)
Theorem beta_bb_accepts f w1 w2 ws U1 U2 :
  evalX (u_open t w1) = Xreal U1 -> evalX (u_open t w2) = Xreal U2 -> 0 < U1 < 1 -> 0 < U2 < 1 ->
  bb_event U1 U2 -> evals (beta_bb (S f) t a b alpha beta gamma (w1 :: w2 :: ws)) (bb_w_expr (u_open t w1), ws).
Proof.
  intros EU1 EU2 HU1 HU2 Ev.
  cbn [beta_bb sbind bind draw_open next_word sret sask]. cbv zeta.
  eapply EvAsk; [apply (bb_t2l_eval _ U1 EU1 HU1)|apply (bb_t2r_eval _ _ U1 U2 EU1 EU2)|].
  destruct (rcmp CGe _ _); [constructor|]. cbn [sbind bind sask sret].
  eapply EvAsk; [apply (bb_s_eval _ U1 EU1 HU1)|apply (bb_lnz_eval _ _ U1 U2 EU1 EU2 HU1 HU2)|].
  destruct (rcmp CGe _ _); [constructor|]. cbn [sbind bind sask sret].
  eapply EvAsk; [apply (bb_e_eval _ U1 EU1 HU1)|apply (bb_lnz_eval _ _ U1 U2 EU1 EU2 HU1 HU2)|].
  unfold rcmp. destruct (Rlt_dec _ _) as [N|_]; [unfold bb_event in Ev; lra|constructor].
Qed.
End BB.

(* the ziggurat loop of the executable model (utils.rs:62-96): every returned value is either produced by the
   tail routine (layer 0 with a failed rectangle test), or is x = u * X_i accepted by the rectangle test
   |x| < X_(i+1) (x < X_(i+1) for the one-sided exponential), or - for a layer i >= 1 whose rectangle test failed -
   by the wedge test  F_(i+1) + (F_i - F_(i+1)) u2 < pdf(x).  These are the events of Proofs/ZigIdentity.v.     *)
Definition tabR (l : list (Z * Z)) (i : nat) : R := dyR (nth i l (0, 0)%Z).
Lemma tab_eval l i : evalX (tab l i) = Xreal (tabR l i).
Proof. unfold tab, tabR. apply dyx_eval. Qed.

Definition zig_u (sym : bool) (bits : Z) : expr :=
  if sym then Exact (Dy (bits / 2 ^ 12 - 2 ^ 51) (-51)) else Exact (Dy (2 * (bits / 2 ^ 12) + 1) (-53)).

Definition zig_accepted (sym : bool) (X Fv : list (Z * Z)) (pdf : expr -> expr) (e : expr) : Prop :=
  exists bits V, let i := Z.to_nat (bits mod 256) in
    e = zig_u sym bits *. tab X i /\ evalX e = Xreal V /\
    ((if sym then Rabs V else V) < tabR X (S i) \/
     (i <> 0%nat /\ tabR X (S i) <= (if sym then Rabs V else V) /\
      exists w2 Y, word w2 /\ evalX (pdf e) = Xreal Y /\
        tabR Fv (S i) + (tabR Fv i - tabR Fv (S i)) * uR_std F64 w2 < Y)).

Theorem zig_returns_accepted sym X Fv pdf zc (Pz : expr * list Z -> Prop) :
  (forall um u ws, List.Forall word ws -> allout Pz nopanic (zc um u ws)) ->
  forall fuel ws, List.Forall word ws ->
  allout (fun q => Pz q \/ zig_accepted sym X Fv pdf (fst q)) nopanic (zig fuel sym X Fv pdf zc ws).
Proof.
  intros Hz. induction fuel as [|f IH]; intros ws Hw; [exact nopanic2|].
  destruct Hw as [|bits ws _ Hws]; cbn [zig]; lstep; [exact nopanic1|].
  set (i := Z.to_nat (bits mod 256)). set (x := _ *. tab X i).
  assert (Ex : x = zig_u sym bits *. tab X i) by (destruct sym; reflexivity).
  intros tv xs Etv Exs. rewrite tab_eval in Exs. injection Exs as <-.
  (* the value compared is |x| for the symmetric (normal) table and x for the one-sided (exponential) one *)
  assert (exists V, evalX x = Xreal V /\ tv = if sym then Rabs V else V) as (V & EV & ->).
  { destruct sym; [|exists tv; auto]. unfold eabs in Etv. cbn [evalX xun] in Etv.
    destruct (evalX x) as [|V]; [discriminate|]. exists V. split; [reflexivity|]. injection Etv as <-. reflexivity. }
  unfold rcmp. destruct (Rlt_dec _ (tabR X (S i))) as [G|NG]; lstep.
  { right. exists bits, V. cbv zeta. fold i. rewrite <- Ex. auto. }
  destruct (Nat.eqb_spec i 0) as [I0|I0].
  { eapply allout_mono; [| |apply Hz, Hws]; auto. }
  destruct Hws as [|w2 ws2 Hw2 Hws2]; lstep; [exact nopanic1|].
  intros lw Y Elw EY. cbn [evalX xbin] in Elw. rewrite !tab_eval, u_std_eval in Elw. injection Elw as <-.
  unfold rcmp. destruct (Rlt_dec _ Y) as [G2|_]; lstep; [|apply IH, Hws2].
  right. exists bits, V. cbv zeta. fold i. rewrite <- Ex. split; [reflexivity|]. split; [exact EV|]. right.
  split; [exact I0|]. split; [lra|]. exists w2, Y. auto.
Qed.
