(* Proofs/BetaFinalFl.v — property C03 at the IEEE level (Flocq, any binary format; round to nearest even) for the
   last step of Beta::sample (beta.rs:253-262), which involves no libm call:
       if !switched { if w == inf { return 1 }  w / (b + w) } else { b / (b + w) }
   For every finite b > 0 and every w that is +inf or finite and >= 0 (w = a * exp(v) with a > 0 is such a value
   whatever exp returns, short of NaN) the result is a finite float in [0, 1]: the sum may overflow to +inf
   (quotient 0), the quotient is rounded monotonically from a real in [0, 1], and the w == inf guard avoids inf/inf. *)
From Coq Require Import Reals Lra.
From Flocq Require Import Core.Core IEEE754.BinarySingleNaN.
From RD Require Import Proofs.AffineFl Proofs.TriangularFl.
Open Scope R_scope.

Section Fmt.
Variable prec emax : Z.
Context (Hp : Prec_gt_0 prec) (Hpe : Prec_lt_emax prec emax).
Notation float := (binary_float prec emax).
Notation fexp := (SpecFloat.fexp prec emax).

Instance fexp_valid : Valid_exp fexp := fexp_correct prec emax Hp.

Definition beta_final (switched : bool) (b w : float) : float :=
  if switched then Bdiv mode_NE b (Bplus mode_NE b w)
  else match w with
       | B754_infinity false => Bone
       | _ => Bdiv mode_NE w (Bplus mode_NE b w)
       end.

(* bf 0 of TriangularFl, with 2^0 written 1 *)
Definition in_unit (r : float) : Prop := is_finite r = true /\ 0 <= B2R r <= 1.

Lemma div_inf_in_unit (x : float) : is_finite x = true -> in_unit (Bdiv mode_NE x (B754_infinity false)).
Proof. intros Fx. destruct x as [sx|sx| |sx mx ex Hx]; try discriminate; unfold in_unit; cbn; (split; [reflexivity|lra]). Qed.

Lemma Bsign_pos (x : float) : 0 < B2R x -> Bsign x = false.
Proof.
  destruct x as [s|s| |[|] m e He]; simpl; intros H; try reflexivity; try lra.
  pose proof (F2R_lt_0 radix2 (Defs.Float radix2 (Z.neg m) e) eq_refl). lra.
Qed.

(* b + w for finite b > 0, w >= 0: either +inf or a finite float >= max(b, w) *)
Lemma sum_cases (b w : float) : is_finite b = true -> is_finite w = true -> 0 < B2R b -> 0 <= B2R w ->
  Bplus mode_NE b w = B754_infinity false \/
  (is_finite (Bplus mode_NE b w) = true /\ B2R b <= B2R (Bplus mode_NE b w) /\ B2R w <= B2R (Bplus mode_NE b w)).
Proof.
  intros Fb Fw Hb Hw. pose proof (Bplus_correct prec emax Hp Hpe mode_NE b w Fb Fw) as P.
  destruct (Rlt_bool _ _).
  - right. destruct P as (V & F & _). rewrite V. split; [exact F|]. split; apply (rnd_ge_B2R prec emax Hp); lra.
  - left. destruct P as [P _]. rewrite (Bsign_pos b Hb) in P.
    destruct (Bplus mode_NE b w) as [s0|s0| |s0 m0 e0 H0]; cbn in P; try discriminate. injection P as ->. reflexivity.
Qed.

Theorem beta_final_in_unit switched (b w : float) :
  is_finite b = true -> 0 < B2R b ->
  (w = B754_infinity false \/ (is_finite w = true /\ 0 <= B2R w)) ->
  in_unit (beta_final switched b w).
Proof.
  intros Fb Hb [->|[Fw Hw]].
  - (* w = +inf *)
    unfold beta_final. destruct switched.
    + replace (Bplus mode_NE b (B754_infinity false)) with (B754_infinity false : float)
        by (destruct b as [sb|sb| |sb mb eb Hbb]; try discriminate; reflexivity).
      apply div_inf_in_unit, Fb.
    + exact (bf_one prec emax Hp Hpe).
  - assert (beta_final switched b w = Bdiv mode_NE (if switched then b else w) (Bplus mode_NE b w)) as ->.
    { unfold beta_final. destruct switched; [reflexivity|]. destruct w as [sw|sw| |sw mw ew Hww]; try reflexivity; discriminate. }
    destruct (sum_cases b w Fb Fw Hb Hw) as [->|(Fs & S1 & S2)].
    + apply div_inf_in_unit. destruct switched; assumption.
    + apply (div_bf prec emax Hp Hpe); destruct switched; try assumption; lra.
Qed.
End Fmt.
