(* Proofs/PmfZeta.v — Devroye's rejection sampler for Zeta(s) (zeta.rs:102-143).

   new (105-115):  s_minus_1 = s - 1;  b = 2^(s-1)
   sample (124-142), loop:
       u = OpenClosed01;  x = floor(u^(-1/(s-1)));
       t = (1 + 1/x)^(s-1);  v = StandardUniform;
       if v * x * (t - 1) * b <= t * (b - 1) { return x }

   Proposal: x = floor(u^(-1/(s-1))) = j  iff  (j+1)^-(s-1) < u <= j^-(s-1)  (zeta_proposal_event),
   so P(x = j) = j^-(s-1) - (j+1)^-(s-1).  Acceptance probability a(x) = t (b-1) / (x (t-1) b).
   zeta_identity: proposal * acceptance = (b-1)/b * x^-s, i.e. proportional to the Zeta pmf.
   zeta_accept_le_1: a(x) <= 1 for x >= 1, with equality at x = 1.                              *)
From Coq Require Import Reals Lra.
From RD Require Import Proofs.RejectTools.
Open Scope R_scope.

Lemma Rpower_1_base : forall y, Rpower 1 y = 1.
Proof. intros y. unfold Rpower. rewrite ln_1, Rmult_0_r. apply exp_0. Qed.

Lemma Rpower_gt_1 : forall a c, 0 < c -> 1 < a -> 1 < Rpower a c.
Proof.
  intros a c Hc Ha. rewrite <- (Rpower_1_base c) at 1. apply Rlt_Rpower_l; lra.
Qed.

Lemma Rpower_neg_lt : forall a b c, 0 < c -> 0 < a < b -> Rpower b (- c) < Rpower a (- c).
Proof.
  intros a b c Hc Hab. rewrite !Rpower_Ropp. apply Rinv_lt_contravar.
  - apply Rmult_lt_0_compat; apply Rpower_pos.
  - apply Rlt_Rpower_l; assumption.
Qed.

Lemma Rpower_neg_le : forall a b c, 0 < c -> 0 < a <= b -> Rpower b (- c) <= Rpower a (- c).
Proof.
  intros a b c Hc [Ha [Hab| ->]]; [|lra]. left. apply Rpower_neg_lt; [exact Hc|lra].
Qed.

Definition zeta_b (sm1 : R) : R := Rpower 2 sm1.
Definition zeta_t (sm1 x : R) : R := Rpower (1 + 1 / x) sm1.
(* acceptance probability: the test is  v * x * (t-1) * b <= t * (b-1)  *)
Definition zeta_accept (sm1 x : R) : R :=
  zeta_t sm1 x * (zeta_b sm1 - 1) / (x * (zeta_t sm1 x - 1) * zeta_b sm1).

Lemma zeta_t_eq : forall sm1 x, 0 < x -> zeta_t sm1 x * Rpower x sm1 = Rpower (x + 1) sm1.
Proof.
  intros sm1 x Hx. unfold zeta_t. assert (0 < 1 / x) by (apply Rdiv_lt_0_compat; lra).
  rewrite Rpower_mult_distr by lra. f_equal. field. lra.
Qed.

Lemma zeta_t_gt_1 : forall sm1 x, 0 < sm1 -> 0 < x -> 1 < zeta_t sm1 x.
Proof.
  intros sm1 x Hs Hx. apply Rpower_gt_1; [exact Hs|].
  assert (H0 : 0 < 1 / x) by (apply Rdiv_lt_0_compat; lra). lra.
Qed.

Lemma zeta_b_gt_1 : forall sm1, 0 < sm1 -> 1 < zeta_b sm1.
Proof. intros sm1 Hs. apply Rpower_gt_1; lra. Qed.

Lemma zeta_den_pos : forall sm1 x, 0 < sm1 -> 0 < x ->
  0 < x * (zeta_t sm1 x - 1) * zeta_b sm1.
Proof.
  intros sm1 x Hs Hx. assert (Ht := zeta_t_gt_1 sm1 x Hs Hx). assert (Hb := zeta_b_gt_1 sm1 Hs).
  apply Rmult_lt_0_compat; [apply Rmult_lt_0_compat|]; lra.
Qed.

Theorem zeta_accept_test : forall s x v, 1 < s -> 0 < x ->
  let sm1 := s - 1 in let b := zeta_b sm1 in let t := zeta_t sm1 x in
  (v * x * (t - 1) * b <= t * (b - 1) <-> v <= zeta_accept sm1 x).
Proof.
  intros s x v Hs Hx sm1 b t. unfold zeta_accept.
  rewrite Rle_div_iff by (apply zeta_den_pos; [unfold sm1; lra|exact Hx]).
  fold b t. replace (v * (x * (t - 1) * b)) with (v * x * (t - 1) * b) by ring. reflexivity.
Qed.

(* u^(-1/(s-1)) lies in [x, x+1)  iff  u lies in ((x+1)^-(s-1), x^-(s-1)] *)
Theorem zeta_proposal_event : forall s u x, 1 < s -> 0 < u -> 0 < x ->
  let sm1 := s - 1 in
  (x <= Rpower u (- 1 / sm1) < x + 1 <-> Rpower (x + 1) (- sm1) < u <= Rpower x (- sm1)).
Proof.
  intros s u x Hs Hu Hx sm1. assert (Hs1 : 0 < sm1) by (unfold sm1; lra).
  set (w := Rpower u (- 1 / sm1)).
  assert (Hw : 0 < w) by apply Rpower_pos.
  assert (Huw : u = Rpower w (- sm1)).
  { unfold w. rewrite Rpower_mult. replace (- 1 / sm1 * - sm1) with 1 by (field; lra).
    symmetry. apply Rpower_1. exact Hu. }
  rewrite Huw. split.
  - intros [H1 H2]. split.
    + apply Rpower_neg_lt; [exact Hs1|lra].
    + apply Rpower_neg_le; [exact Hs1|lra].
  - intros [H1 H2]. split.
    + destruct (Rle_lt_dec x w) as [H|H]; [exact H|]. exfalso.
      assert (Hc := Rpower_neg_lt w x sm1 Hs1 ltac:(lra)). lra.
    + destruct (Rle_lt_dec (x + 1) w) as [H|H]; [|exact H]. exfalso.
      assert (Hc := Rpower_neg_le (x + 1) w sm1 Hs1 ltac:(lra)). lra.
Qed.

(* for u in (0,1] the proposal is at least 1 (the debug_assert of zeta.rs:128) *)
Theorem zeta_proposal_ge_1 : forall s u, 1 < s -> 0 < u <= 1 -> 1 <= Rpower u (- 1 / (s - 1)).
Proof.
  intros s u Hs Hu.
  replace (- 1 / (s - 1)) with (- (1 / (s - 1))) by (field; lra).
  assert (Hc : 0 < 1 / (s - 1)) by (apply Rdiv_lt_0_compat; lra).
  assert (H := Rpower_neg_le u 1 (1 / (s - 1)) Hc ltac:(lra)).
  rewrite Rpower_1_base in H. exact H.
Qed.

Theorem zeta_identity : forall s x, 1 < s -> 0 < x ->
  let sm1 := s - 1 in
  (Rpower x (- sm1) - Rpower (x + 1) (- sm1)) * zeta_accept sm1 x
  = (zeta_b sm1 - 1) / zeta_b sm1 * Rpower x (- s).
Proof.
  intros s x Hs Hx sm1. assert (Hs1 : 0 < sm1) by (unfold sm1; lra).
  assert (Ht := zeta_t_gt_1 sm1 x Hs1 Hx). assert (Hb := zeta_b_gt_1 sm1 Hs1).
  assert (HA := Rpower_pos x sm1).
  replace (- s) with (- sm1 + - (1)) by (unfold sm1; ring).
  rewrite Rpower_plus, !Rpower_Ropp, Rpower_1, <- (zeta_t_eq sm1 x Hx) by exact Hx.
  unfold zeta_accept. field. repeat split; lra.
Qed.

(* a differentiable function with non-decreasing derivative lies below its chord *)
Lemma chord_above : forall (g g' : R -> R),
  (forall c, 0 <= c <= 1 -> derivable_pt_lim g c (g' c)) ->
  (forall c1 c2, 0 <= c1 -> c1 <= c2 -> c2 <= 1 -> g' c1 <= g' c2) ->
  forall y, 0 <= y <= 1 -> g y <= (1 - y) * g 0 + y * g 1.
Proof.
  intros g g' Hd Hmono y Hy.
  destruct (Req_dec y 0) as [->|H0]; [lra|]. destruct (Req_dec y 1) as [->|H1]; [lra|].
  destruct (MVT_cor2 g g' 0 y) as [c1 [E1 Hc1]]; [lra|intros c Hc; apply Hd; lra|].
  destruct (MVT_cor2 g g' y 1) as [c2 [E2 Hc2]]; [lra|intros c Hc; apply Hd; lra|].
  assert (Hm := Hmono c1 c2 ltac:(lra) ltac:(lra) ltac:(lra)).
  assert (0 <= (g' c2 - g' c1) * (y * (1 - y))) by (apply Rmult_le_pos; nra).
  nra.
Qed.

Lemma derivable_pt_lim_shift_power : forall y z, 0 < 1 + y ->
  derivable_pt_lim (fun y => Rpower (1 + y) z) y (z * Rpower (1 + y) (z - 1)).
Proof.
  intros y z Hy.
  replace (z * Rpower (1 + y) (z - 1)) with (z * Rpower (1 + y) (z - 1) * (0 + 1)) by ring.
  apply (derivable_pt_lim_comp (fun y => 1 + y) (fun w => Rpower w z)).
  - apply derivable_pt_lim_plus; [apply derivable_pt_lim_const|apply derivable_pt_lim_id].
  - apply derivable_pt_lim_power. exact Hy.
Qed.

(* convexity of y |-> (1+y)^-c between its values at 0 and 1 *)
Lemma Rpower_chord : forall c y, 0 < c -> 0 <= y <= 1 ->
  Rpower (1 + y) (- c) <= 1 - y + y * Rpower 2 (- c).
Proof.
  intros c y Hc Hy.
  assert (H : Rpower (1 + y) (- c) <= (1 - y) * Rpower (1 + 0) (- c) + y * Rpower (1 + 1) (- c)).
  { apply (chord_above (fun y => Rpower (1 + y) (- c)) (fun y => - c * Rpower (1 + y) (- c - 1))).
    - intros z Hz. apply derivable_pt_lim_shift_power. lra.
    - intros c1 c2 H0 H12 H1.
      assert (Rpower (1 + c2) (- c - 1) <= Rpower (1 + c1) (- c - 1)).
      { replace (- c - 1) with (- (c + 1)) by ring. apply Rpower_neg_le; lra. }
      nra.
    - exact Hy. }
  rewrite Rplus_0_r, Rpower_1_base in H. replace (1 + 1) with 2 in H by ring. lra.
Qed.

(* the chord inequality at y = 1/x, multiplied by t b x > 0 *)
Lemma accept_of_chord : forall t b x, 1 < t -> 1 < b -> 0 < x ->
  / t <= 1 - 1 / x + 1 / x * / b -> t * (b - 1) <= 1 * (x * (t - 1) * b).
Proof.
  intros t b x Ht Hb Hx H.
  apply Rmult_le_compat_r with (r := t * b * x) in H; [|apply Rlt_le; repeat apply Rmult_lt_0_compat; lra].
  replace (/ t * (t * b * x)) with (b * x) in H by (field; lra).
  replace ((1 - 1 / x + 1 / x * / b) * (t * b * x)) with (t * b * x - t * b + t) in H by (field; lra).
  lra.
Qed.

Theorem zeta_accept_le_1 : forall s x, 1 < s -> 1 <= x -> zeta_accept (s - 1) x <= 1.
Proof.
  intros s x Hs Hx. assert (Hs1 : 0 < s - 1) by lra. assert (Hx0 : 0 < x) by lra.
  assert (Hy : 0 <= 1 / x <= 1) by (split; [apply Rlt_le, Rdiv_lt_0_compat|apply Rdiv_le_iff]; lra).
  assert (Hch := Rpower_chord (s - 1) (1 / x) Hs1 Hy). rewrite !Rpower_Ropp in Hch.
  apply Rdiv_le_iff; [apply zeta_den_pos; assumption|].
  apply accept_of_chord; [apply zeta_t_gt_1; assumption|apply zeta_b_gt_1, Hs1|exact Hx0|exact Hch].
Qed.

Theorem zeta_accept_at_1 : forall s, 1 < s -> zeta_accept (s - 1) 1 = 1.
Proof.
  intros s Hs. unfold zeta_accept, zeta_t. replace (1 + 1 / 1) with 2 by field.
  fold (zeta_b (s - 1)). assert (Hb := zeta_b_gt_1 (s - 1) ltac:(lra)). field. lra.
Qed.

Theorem zeta_accept_pos : forall s x, 1 < s -> 0 < x -> 0 < zeta_accept (s - 1) x.
Proof.
  intros s x Hs Hx. assert (Hs1 : 0 < s - 1) by lra.
  assert (Ht := zeta_t_gt_1 (s - 1) x Hs1 Hx). assert (Hb := zeta_b_gt_1 (s - 1) Hs1).
  apply Rdiv_lt_0_compat; [apply Rmult_lt_0_compat; lra|apply zeta_den_pos; assumption].
Qed.

Lemma zeta_accept_def : forall sm1 x,
  zeta_b sm1 = Rpower 2 sm1 /\ zeta_t sm1 x = Rpower (1 + 1 / x) sm1 /\
  zeta_accept sm1 x = zeta_t sm1 x * (zeta_b sm1 - 1) / (x * (zeta_t sm1 x - 1) * zeta_b sm1).
Proof. intros. repeat split. Qed.
