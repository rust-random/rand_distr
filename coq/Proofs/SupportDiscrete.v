(* Proofs/SupportDiscrete.v — property C03 on the EXECUTABLE discrete sampler models of
   Model/Discrete.v (the decision trees that the correspondence check runs against the crate):
   under the exact real semantics, for every word list, every value a model can return lies in the
   support of the distribution, and the failure code 3 (the places where the code would panic:
   u64 underflow, f64_to_u64 assertion, `1 << 64`, overflowing add) is unreachable.

   `allout P Q r` (Proofs/LoopBounds.v): every returned value satisfies P and every reachable failure
   code satisfies Q.  Failure codes 1 (the explicit word list ran out) and 2 (loop fuel of the model)
   are not panics of the code and are allowed here; C05 bounds them separately.                     *)
From Coq Require Import Reals List Lra Lia Bool.
From Interval Require Import Xreal.
From Flocq Require Import Core.
From RD Require Import Base.Expr Base.Run Model.Sampler Model.Continuous Model.Discrete Proofs.LawsInvCdf
  Proofs.Support Proofs.LoopBounds Proofs.PmfZeta Proofs.PmfZipf Proofs.PmfBinomial Proofs.PmfRatioModel.
Open Scope Z_scope.
Open Scope sampler_scope.

Import ExprNotations.

Definition nopanic (c : Z) : Prop := c <> 3.

Lemma nopanic1 : nopanic 1. Proof. discriminate. Qed.
Lemma nopanic2 : nopanic 2. Proof. discriminate. Qed.
#[local] Hint Resolve nopanic1 nopanic2 : core.

Lemma allout_post {A} (P P' : A -> Prop) Q r : allout P Q r -> (forall a, P a -> P' a) -> allout P' Q r.
Proof. intros H HP. apply (allout_mono P P' Q Q r HP (fun _ H => H) H). Qed.

(* a floor node whose expression has a known value (for a comparison: LoopBounds.ask_values) *)
Lemma sfloor_value {B} e x ws (P : B -> Prop) Q (k : Z * list Z -> run B) :
  evalX e = Xreal x -> allout P Q (k (Zfloor x, ws)) -> allout P Q (bind (sfloor e ws) k).
Proof. intros E H x' Ex. rewrite E in Ex. injection Ex as <-. exact H. Qed.

Local Open Scope R_scope.
Lemma floor_bounds x : IZR (Zfloor x) <= x < IZR (Zfloor x) + 1.
Proof. split; [apply Zfloor_lb|apply Zfloor_ub]. Qed.
Lemma Zfloor_range x (a b : Z) : IZR a <= x < IZR b -> (a <= Zfloor x < b)%Z.
Proof.
  intros [A B]. split; [apply Zfloor_lub, A|]. apply lt_IZR, Rle_lt_trans with x; [apply Zfloor_lb|exact B].
Qed.

(* the value of a compound expression from the values of its parts *)
Section EvalParts.
Variables (a b : expr) (x y : R).
Hypothesis Ea : evalX a = Xreal x.
Hypothesis Eb : evalX b = Xreal y.
Lemma add_eval : evalX (a +. b) = Xreal (x + y). Proof. cbn [evalX xbin]. rewrite Ea, Eb. reflexivity. Qed.
Lemma sub_eval : evalX (a -. b) = Xreal (x - y). Proof. cbn [evalX xbin]. rewrite Ea, Eb. reflexivity. Qed.
Lemma mul_eval : evalX (a *. b) = Xreal (x * y). Proof. cbn [evalX xbin]. rewrite Ea, Eb. reflexivity. Qed.
Lemma div_eval : y <> 0 -> evalX (a /. b) = Xreal (x / y).
Proof. intros H. cbn [evalX xbin]. rewrite Ea, Eb. apply Xdiv_nz, H. Qed.
Lemma pow_eval : 0 < x -> evalX (epow a b) = Xreal (Rpower x y).
Proof. intros H. unfold epow. cbn [evalX xbin]. rewrite Ea, Eb. apply Xpow_pos, H. Qed.
Lemma ln_eval : 0 < x -> evalX (eln a) = Xreal (ln x).
Proof. intros H. unfold eln. cbn [evalX xun]. rewrite Ea. apply Xln_pos, H. Qed.
Lemma exp_eval : evalX (eexp a) = Xreal (exp x). Proof. unfold eexp. cbn [evalX xun]. rewrite Ea. reflexivity. Qed.
Lemma neg_eval : evalX (eneg a) = Xreal (- x). Proof. unfold eneg. cbn [evalX xun]. rewrite Ea. reflexivity. Qed.
End EvalParts.
Lemma sqrt_eval e x : evalX e = Xreal x -> (0 <= x)%R -> evalX (esqrt e) = Xreal (sqrt x).
Proof.
  intros E Hx. unfold esqrt. cbn [evalX xun]. rewrite E. unfold Xsqrt. cbn. unfold Xsqrt'.
  destruct (is_negative_spec x); [lra|reflexivity].
Qed.
Lemma rnd_eval e : evalX (rnd e) = evalX e. Proof. reflexivity. Qed.
Lemma cst_eval t e : evalX (cst t e) = evalX e. Proof. destruct t; reflexivity. Qed.
Lemma dec_eval d k : (0 <= k)%Z -> evalX (dec d k) = Xreal (IZR d / IZR (10 ^ k)).
Proof.
  intros Hk. apply div_eval; [apply num_eval..|].
  apply not_0_IZR. pose proof (Z.pow_pos_nonneg 10 k ltac:(lia) Hk). lia.
Qed.

(* `auto with evalx` finds the value of an expression when the real it is to equal is written in the same
   shape; lra has to see from the context that divisors are not 0 and arguments of ln and pow positive *)
Create HintDb evalx.
#[local] Hint Resolve add_eval sub_eval mul_eval neg_eval exp_eval one_eval half_eval num_eval dyx_eval zf_eval
  u_std_eval u_oc_eval : evalx.
#[local] Hint Extern 1 (evalX (dec _ _) = _) => apply dec_eval; lia : evalx.
#[local] Hint Extern 1 (evalX (_ /. _) = _) => apply div_eval; [| |lra] : evalx.
#[local] Hint Extern 1 (evalX (epow _ _) = _) => apply pow_eval; [| |lra] : evalx.
#[local] Hint Extern 1 (evalX (eln _) = _) => apply ln_eval; [|lra] : evalx.

Lemma sm1_eval s : evalX (dyx s -. one) = Xreal (dyR s - 1).
Proof. auto with evalx. Qed.

Lemma zeta_proposal_eval t s w : 1 < dyR s -> word w ->
  evalX (epow (u_oc t w) (num (-1) /. (dyx s -. one))) = Xreal (Rpower (uR_oc t w) (-1 / (dyR s - 1))).
Proof.
  intros Hs Hw. pose proof (uR_oc_range t w Hw). auto with evalx.
Qed.
Local Open Scope Z_scope.

Lemma geo_trivial_spec fuel : forall p failures ws,
  allout (fun q => failures <= fst q <= failures + Z.of_nat fuel) nopanic (geo_trivial fuel p failures ws).
Proof.
  induction fuel as [|f IH]; intros p failures ws; [exact nopanic2|].
  destruct ws as [|w ws]; cbn [geo_trivial]; lstep; [exact nopanic1|].
  intros x y _ _. destruct (rcmp CLe x y); lstep; [lia|].
  eapply allout_post; [apply IH|]. intros [r rest]; cbn [fst]. lia.
Qed.

Lemma geo_d_spec fuel : forall pi failures ws,
  allout (fun q => failures <= fst q <= failures + Z.of_nat fuel) nopanic (geo_d fuel pi failures ws).
Proof.
  induction fuel as [|f IH]; intros pi failures ws; [exact nopanic2|].
  destruct ws as [|w ws]; cbn [geo_d]; lstep; [exact nopanic1|].
  intros x y _ _. destruct (rcmp CLt x y); lstep; [|lia].
  eapply allout_post; [apply IH|]. intros [r rest]; cbn [fst]. lia.
Qed.

Lemma geo_m_spec fuel : forall p k ws, 0 <= k ->
  allout (fun q => 0 <= fst q < 2 ^ k) nopanic (geo_m fuel p k ws).
Proof.
  induction fuel as [|f IH]; intros p k ws Hk; [exact nopanic2|].
  destruct ws as [|w [|w2 ws]]; cbn [geo_m]; lstep; [exact nopanic1|exact nopanic1|].
  intros x y _ _. destruct (rcmp CLt x y); lstep.
  - apply Z.mod_pos_bound. apply Z.pow_pos_nonneg; lia.
  - apply IH, Hk.
Qed.

(* (d << k) + m with m < 2^k cannot overflow: (d * 2^k) mod 2^64 is a multiple of 2^k *)
Lemma shl_add_range d k m : 0 <= d -> 0 <= k < 64 -> 0 <= m < 2 ^ k -> 0 <= (d * 2 ^ k) mod 2 ^ 64 + m < 2 ^ 64.
Proof.
  intros Hd Hk Hm.
  replace (2 ^ 64) with (2 ^ (64 - k) * 2 ^ k) by (rewrite <- Z.pow_add_r by lia; f_equal; lia).
  assert (0 < 2 ^ k) by (apply Z.pow_pos_nonneg; lia).
  assert (0 < 2 ^ (64 - k)) by (apply Z.pow_pos_nonneg; lia).
  rewrite Z.mul_mod_distr_r by lia.
  pose proof (Z.mod_pos_bound d (2 ^ (64 - k)) ltac:(lia)). nia.
Qed.

(* Geometric(p), 0 < p <= 1: a u64 without panic (the shift `1 << k` has k <= 54; `(d << k) + m` fits) *)
Theorem geometric_support p ws : (0 < dyR p <= 1)%R ->
  allout (fun q => 0 <= fst q < 2 ^ 64) nopanic (geometric p ws).
Proof.
  intros Hp. unfold geometric. lstep. intros x y _ _. destruct (rcmp CGe x y).
  - eapply allout_post; [apply geo_trivial_spec|]. intros [r rest]; cbn [fst]. lia.
  - destruct (rounds_to_one p) eqn:R1; lstep; [unfold U64MAX; lia|].
    apply rounds_to_one_false in R1.
    eapply allout_sbind; [apply (geo_new_loop_model p ws); lra|intros c []|].
    intros [pi k] ws1; cbn [fst snd]. intros [Hk ->].
    destruct (Z.leb_spec 64 k) as [L|L]; [lia|].
    eapply allout_sbind; [apply geo_d_spec|auto|]. intros d ws2; cbn [fst]. intros Hd.
    eapply allout_sbind; [apply (geo_m_spec 256 (dyx p) k ws2); lia|auto|]. intros m ws3; cbn [fst]. intros Hm.
    pose proof (shl_add_range d k m ltac:(lia) ltac:(lia) Hm) as Hr.
    destruct (Z.ltb_spec ((d * 2 ^ k) mod 2 ^ 64 + m) (2 ^ 64)) as [L2|L2]; lstep; [cbn [fst]; lia|lia].
Qed.

(* StandardGeometric: nonnegative, below 64 * 64 (C05 gives the word count) *)
Theorem std_geometric_support ws : Forall word ws ->
  allout (fun q => 0 <= fst q < 64 * 64) nopanic (std_geometric ws).
Proof.
  intros Hw. apply allout_spec. split.
  - intros [x rest] E. apply (std_geometric_words ws x rest Hw E).
  - intros c F. destruct (allout_fails _ _ _ _ (std_geometric_loop_spec 64 0 ws Hw) F) as [(-> & _)|(-> & _)]; auto.
Qed.

Lemma zeta_loop_spec fuel : forall t s b ws, (1 < dyR s)%R -> Forall word ws ->
  allout (fun q => fst q = -1 \/ 1 <= fst q) nopanic (zeta_loop fuel t (dyx s -. one) b ws).
Proof.
  induction fuel as [|f IH]; intros t s b ws Hs Hw; [exact nopanic2|].
  destruct ws as [|w ws]; cbn [zeta_loop]; lstep; [exact nopanic1|].
  apply Forall_cons_iff in Hw as [Hw0 Hws].
  intros x y _ _. destruct (rcmp CGe x y); lstep; [left; reflexivity|].
  apply (sfloor_value _ _ _ _ _ _ (zeta_proposal_eval t s w Hs Hw0)).
  assert (1 <= Zfloor (Rpower (uR_oc t w) (-1 / (dyR s - 1)))).
  { apply Zfloor_lub, (zeta_proposal_ge_1 (dyR s) (uR_oc t w) Hs), uR_oc_range, Hw0. }
  destruct ws as [|w2 ws2]; lstep; [exact nopanic1|].
  intros x1 y1 _ _. destruct (rcmp CLe x1 y1); lstep; [right; assumption|].
  apply Forall_cons_iff in Hws. apply IH; [exact Hs|apply Hws].
Qed.

(* Zeta(s), s > 1: a positive integer, or -1 standing for the documented +infinity of the proposal *)
Theorem zeta_support t s ws : (1 < dyR s)%R -> Forall word ws ->
  allout (fun q => fst q = -1 \/ 1 <= fst q) nopanic (zeta t s ws).
Proof. intros Hs Hw. unfold zeta. apply zeta_loop_spec; assumption. Qed.

Lemma knuth_spec t lambda ws : allout (fun q => 0 <= fst q) nopanic (knuth t lambda ws).
Proof.
  unfold knuth. destruct ws as [|w ws]; lstep; [exact nopanic1|].
  eapply allout_mono; [| |apply knuth_loop_spec].
  - intros q (j & _ & J & _). lia.
  - intros c [[-> _]|[-> _]]; discriminate.
Qed.

(* the ziggurat primitives of Model/Continuous.v never reach a panic leaf *)
Lemma norm_tail_spec fuel : forall ws, allout (fun _ => True) nopanic (norm_tail fuel ws).
Proof.
  induction fuel as [|f IH]; intros ws; [exact nopanic2|].
  destruct ws as [|w1 [|w2 ws]]; cbn [norm_tail]; lstep; [exact nopanic1|exact nopanic1|].
  intros x y _ _. destruct (rcmp CLt x y); lstep; [apply IH|exact I].
Qed.
Lemma norm_zero_spec um u ws : allout (fun _ => True) nopanic (norm_zero um u ws).
Proof.
  unfold norm_zero. eapply allout_sbind; [apply norm_tail_spec|auto|].
  intros x ws' _. destruct (um <? 0); lstep; exact I.
Qed.
Lemma exp_zero_spec um u ws : allout (fun _ => True) nopanic (exp_zero um u ws).
Proof. unfold exp_zero. destruct ws as [|w ws]; lstep; [exact nopanic1|exact I]. Qed.
Lemma zig_spec fuel sym X Fv pdf zc : (forall um u ws, allout (fun _ => True) nopanic (zc um u ws)) ->
  forall ws, allout (fun _ => True) nopanic (zig fuel sym X Fv pdf zc ws).
Proof.
  intros Hz. induction fuel as [|f IH]; intros ws; [exact nopanic2|].
  destruct ws as [|w ws]; cbn [zig]; lstep; [exact nopanic1|].
  intros x y _ _. destruct (rcmp CLt x y); lstep; [exact I|].
  destruct (Z.to_nat (w mod 256)) eqn:Ei; [apply Hz|].
  destruct ws as [|w2 ws2]; lstep; [exact nopanic1|].
  intros x1 y1 _ _. destruct (rcmp CLt x1 y1); lstep; [exact I|apply IH].
Qed.
Lemma std_normal_spec t ws : allout (fun _ => True) nopanic (std_normal t ws).
Proof.
  destruct t; cbn [std_normal].
  - eapply allout_sbind; [apply zig_spec, norm_zero_spec|auto|]. intros; lstep; exact I.
  - apply zig_spec, norm_zero_spec.
Qed.
Lemma exp1_spec t ws : allout (fun _ => True) nopanic (exp1 t ws).
Proof.
  destruct t; cbn [exp1].
  - eapply allout_sbind; [apply zig_spec, exp_zero_spec|auto|]. intros; lstep; exact I.
  - apply zig_spec, exp_zero_spec.
Qed.

Lemma pd_f_spec t P k ws : 0 <= k -> allout (fun _ => True) nopanic (pd_f t P k ws).
Proof.
  intros Hk. unfold pd_f. destruct (Z.ltb_spec k 0) as [L|L]; [lia|].
  destruct (k <? 10); lstep; [exact I|]. intros x y _ _. lstep. exact I.
Qed.

Section PD.
Variables (t : fty) (P : pd_consts) (L : R).
Hypothesis HL : (12 <= L)%R.
Hypothesis Hlam : evalX (pd_lambda P) = Xreal L.
Hypothesis Hs : evalX (pd_s P) = Xreal (sqrt L).

Lemma pd_floor_nonneg x : (- (6744 / 10 ^ 4) < x)%R -> (0 <= L + sqrt L * x)%R.
Proof.
  intros Hx. pose proof (sqrt_sqrt L ltac:(lra)) as SS. pose proof (sqrt_pos L) as S0.
  assert (1 <= sqrt L)%R.
  { destruct (Rle_lt_dec 1 (sqrt L)) as [H|H]; [exact H|]. exfalso. nra. }
  nra.
Qed.

Lemma pd_loop_spec fuel : forall ws, allout (fun q => 0 <= fst q) nopanic (pd_loop fuel t P ws).
Proof.
  induction fuel as [|f IH]; intros ws; [exact nopanic2|].
  cbn [pd_loop]. eapply allout_sbind; [apply exp1_spec|auto|]. intros e ws1 _.
  destruct ws1 as [|w ws2]; lstep; [exact nopanic1|].
  intros x y Ex Ey. rewrite cst_eval, (neg_eval _ _ (dec_eval 6744 4 ltac:(lia))) in Ey. injection Ey as <-.
  unfold rcmp. destruct (Rlt_dec _ x) as [Lt|Lt]; [|apply IH].
  apply (sfloor_value _ _ _ _ _ _ (add_eval _ _ _ _ Hlam (mul_eval _ _ _ _ Hs Ex))).
  assert (0 <= Zfloor (L + sqrt L * x)) as Hk by (apply Zfloor_lub, pd_floor_nonneg; simpl in Lt; lra).
  eapply allout_sbind; [apply pd_f_spec, Hk|auto|]. intros [[[px py] fx] fy] ws3 _.
  lstep. intros x1 y1 _ _. destruct (rcmp CLe x1 y1); lstep; [exact Hk|apply IH].
Qed.

Lemma pd_sample_spec ws : allout (fun q => 0 <= fst q) nopanic (pd_sample t P ws).
Proof.
  unfold pd_sample. eapply allout_sbind; [apply std_normal_spec|auto|]. intros z ws1 _.
  lstep. intros x y Ex Ey. rewrite num_eval in Ey. injection Ey as <-.
  unfold rcmp. destruct (Rle_dec 0 x) as [G|G]; [|apply pd_loop_spec].
  apply (sfloor_value _ _ _ _ _ _ Ex).
  assert (0 <= Zfloor x) as Hk by (apply Zfloor_lub; exact G).
  destruct (pd_l P <=? Zfloor x); lstep; [exact Hk|].
  destruct ws1 as [|w ws2]; lstep; [exact nopanic1|].
  intros x1 y1 _ _. destruct (rcmp CGe x1 y1); lstep; [exact Hk|].
  eapply allout_sbind; [apply pd_f_spec, Hk|auto|]. intros [[[px py] fx] fy] ws3 _.
  lstep. intros x2 y2 _ _. destruct (rcmp CLe x2 y2); lstep; [exact Hk|apply pd_loop_spec].
Qed.
End PD.

(* Poisson(lambda), lambda > 0: a nonnegative integer; the factorial-table index of step F is in range *)
Theorem poisson_support t lambda ws : (0 < dyR lambda)%R ->
  allout (fun q => 0 <= fst q) nopanic (poisson t lambda ws).
Proof.
  intros Hl. unfold poisson. destruct (dy_ltb lambda (12, 0)) eqn:E; [apply knuth_spec|].
  apply dy_ltb_false in E. rewrite dyR_int in E.
  unfold pd_new. unfold sfloor at 1. cbn [sbind bind allout]. intros x _. lstep.
  apply (pd_sample_spec t _ (dyR lambda) E); cbn [pd_lambda pd_s].
  - apply dyx_eval.
  - apply sqrt_eval; [apply dyx_eval|lra].
Qed.

(* the assertion of f64_to_u64 holds for a value in [0, hi), hi <= u64::MAX: no failure at all *)
Lemma f64_to_u64_spec e x ws hi Q : evalX e = Xreal x -> (0 <= x < IZR hi)%R -> hi <= U64MAX ->
  allout (fun q => q = (Zfloor x, ws) /\ 0 <= Zfloor x < hi) Q (f64_to_u64 e ws).
Proof.
  intros E H Hhi. apply (Zfloor_range x 0 hi) in H.
  unfold f64_to_u64. apply (sfloor_value _ _ _ _ _ _ E).
  replace ((Zfloor x <? 0) || (U64MAX <=? Zfloor x)) with false
    by (symmetry; apply orb_false_iff; split; [apply Z.ltb_ge|apply Z.leb_gt]; lia).
  lstep. split; [reflexivity|exact H].
Qed.

(* step 5 only ever returns the candidate it was given, and for a candidate in [0, n] it cannot
   reach the u64 underflow of step 5.3 *)
Definition step5_post (y : Z) (ws : list Z) (q : option Z * list Z) : Prop :=
  snd q = ws /\ match fst q with Some y' => y' = y | None => True end.

Lemma btpe_step5_spec n pe m x_m y v ws : 0 <= y <= n ->
  allout (step5_post y ws) (fun _ => False) (btpe_step5 n pe m x_m y v ws).
Proof.
  intros Hy. unfold btpe_step5. cbv zeta.
  assert (allout (step5_post y ws) (fun _ => False)
            ((gt <- sask CGt v (btpe_f51 n pe m y) ;; if gt then sret None else sret (Some y)) ws)) as S51.
  { lstep. intros x0 y0 _ _. destruct (rcmp CGt x0 y0); lstep; split; auto; reflexivity. }
  destruct (20 <? Z.abs (y - m)); lstep.
  - intros x0 y0 _ _. destruct (rcmp CLt x0 y0); cbn [negb]; [|exact S51].
    lstep. intros x1 y1 _ _. destruct (rcmp CLt x1 y1); lstep; [split; reflexivity|].
    intros x2 y2 _ _. destruct (rcmp CGt x2 y2); lstep; [split; [reflexivity|exact I]|].
    destruct (Z.ltb_spec n y) as [L|L]; [lia|]. lstep.
    intros x3 y3 _ _. destruct (rcmp CGt x3 y3); lstep; split; auto; reflexivity.
  - exact S51.
Qed.

Local Open Scope R_scope.

(* strict versions of zipf_inv_le_n_*: below the total hat mass t the inverse stays below n,
   since inv(pt) = n would give pt = Hcum(n) = t *)
Lemma zipf_inv_lt_n_ne1 n s pt : s <> 1 -> 0 <= s -> 1 <= n -> 1 < pt < zipf_t_ne1 n s ->
  1 < zipf_inv_ne1 s pt < n.
Proof.
  intros Hs Hs0 Hn Hpt.
  assert (Hbase := zipf_inv_base_pos n s pt Hs Hs0 Hn ltac:(lra)).
  destruct (zipf_inv_cdf_ne1 s pt Hs ltac:(lra) Hbase) as [H1 Hc].
  destruct (zipf_inv_le_n_ne1 n s pt Hs Hs0 Hn ltac:(lra)) as [Hlt|He]; [lra|exfalso].
  rewrite He in Hc. pose proof (zipf_t_is_Hcum_ne1 n s Hs Hn) as Ht. destruct (Rle_dec n 1); lra.
Qed.

Lemma zipf_inv_lt_n_eq1 n pt : 1 <= n -> 1 < pt < zipf_t_eq1 n -> 1 < zipf_inv_eq1 pt < n.
Proof.
  intros Hn Hpt. unfold zipf_t_eq1 in Hpt. unfold zipf_inv_eq1. destruct (Rle_dec pt 1); [lra|]. split.
  - pose proof (exp_increasing 0 (pt - 1) ltac:(lra)) as H. rewrite exp_0 in H. exact H.
  - pose proof (exp_increasing (pt - 1) (ln n) ltac:(lra)) as H. rewrite exp_ln in H by lra. exact H.
Qed.

(* t >= 1, and t = 1 when n = 1 *)
Lemma zipf_t_ne1_ge_1 n s : s <> 1 -> 1 <= n -> 1 <= zipf_t_ne1 n s.
Proof.
  intros Hs Hn. unfold zipf_t_ne1.
  destruct (Rlt_le_dec s 1) as [Hlt|Hge].
  - assert (1 <= Rpower n (1 - s)).
    { pose proof (Rle_Rpower_l 1 n (1 - s) ltac:(lra) ltac:(lra)) as H. rewrite Rpower_1_base in H. exact H. }
    apply Rmult_le_reg_r with (1 - s); [lra|].
    replace ((Rpower n (1 - s) - s) * (1 / (1 - s)) * (1 - s)) with (Rpower n (1 - s) - s) by (field; lra). lra.
  - assert (Rpower n (1 - s) <= 1).
    { pose proof (Rpower_neg_le 1 n (s - 1) ltac:(lra) ltac:(lra)) as H. rewrite Rpower_1_base in H.
      replace (1 - s) with (- (s - 1)) by ring. exact H. }
    apply Rmult_le_reg_r with (s - 1); [lra|].
    replace ((Rpower n (1 - s) - s) * (1 / (1 - s)) * (s - 1)) with (s - Rpower n (1 - s)) by (field; lra). lra.
Qed.
Lemma zipf_t_ne1_at_1 s : s <> 1 -> zipf_t_ne1 1 s = 1.
Proof. intros Hs. unfold zipf_t_ne1. rewrite Rpower_1_base. field. lra. Qed.
Lemma zipf_t_eq1_ge_1 n : 1 <= n -> 1 <= zipf_t_eq1 n.
Proof. intros Hn. unfold zipf_t_eq1. assert (0 <= ln n); [|lra]. destruct Hn as [Hn|<-]; [|rewrite ln_1; lra]. left. rewrite <- ln_1 at 1. apply ln_increasing; lra. Qed.
Lemma zipf_t_eq1_at_1 : zipf_t_eq1 1 = 1.
Proof. unfold zipf_t_eq1. rewrite ln_1. ring. Qed.

Lemma floor_plus1_range y (N : Z) : 0 <= y < IZR N -> (1 <= Zfloor (y + 1) <= N)%Z.
Proof. intros H. assert (1 <= Zfloor (y + 1) < N + 1)%Z; [|lia]. apply Zfloor_range. rewrite plus_IZR. lra. Qed.

Section Zipf.
Variables (t : fty) (n s : Z * Z) (N : Z).
Hypothesis Hn : dyR n = IZR N.
Hypothesis HN : (1 <= N)%Z.
Hypothesis Hs : 0 <= dyR s.

Let s_is_1 := dy_eqb s (1%Z, 0%Z).
Let se := dyx s.
Let oms := one -. se.
Let q := if s_is_1 then num 0 else one /. oms.
Let tt := if s_is_1 then one +. eln (dyx n) else (epow (dyx n) oms -. se) *. q.
Let T : R := if s_is_1 then zipf_t_eq1 (IZR N) else zipf_t_ne1 (IZR N) (dyR s).

Lemma HN1 : 1 <= IZR N. Proof. apply (IZR_le 1). exact HN. Qed.

Lemma s_is_1_true : s_is_1 = true -> dyR s = 1.
Proof. intros H. apply dy_eqb_true in H. rewrite H. apply dyR_int. Qed.
Lemma s_is_1_false : s_is_1 = false -> dyR s <> 1.
Proof. intros H. apply dy_eqb_false in H. rewrite dyR_int in H. exact H. Qed.

Lemma oms_eval : evalX oms = Xreal (1 - dyR s).
Proof. unfold oms, se. auto with evalx. Qed.
Lemma inv_oms_eval : dyR s <> 1 -> evalX (one /. oms) = Xreal (1 / (1 - dyR s)).
Proof. intros H. pose proof oms_eval. auto with evalx. Qed.

Lemma tt_eval : evalX tt = Xreal T.
Proof.
  pose proof HN1 as H1. pose proof (dyx_eval n) as En. rewrite Hn in En. unfold tt, T, zipf_t_eq1, zipf_t_ne1. destruct s_is_1 eqn:E.
  - auto with evalx.
  - pose proof oms_eval. pose proof (inv_oms_eval (s_is_1_false E)). unfold se. auto with evalx.
Qed.

Lemma T_ge_1 : 1 <= T.
Proof.
  pose proof HN1. unfold T. destruct s_is_1 eqn:E.
  - apply zipf_t_eq1_ge_1. assumption.
  - apply zipf_t_ne1_ge_1; [apply s_is_1_false, E|assumption].
Qed.
Lemma T_at_1 : N = 1%Z -> T = 1.
Proof.
  intros E1. unfold T. rewrite E1. destruct s_is_1 eqn:E.
  - apply zipf_t_eq1_at_1.
  - apply zipf_t_ne1_at_1. apply s_is_1_false, E.
Qed.

(* pt = p t for the first draw p *)
Lemma zipf_pt_eval w : evalX (u_std t w *. tt) = Xreal (uR_std t w * T).
Proof. pose proof tt_eval. auto with evalx. Qed.
Lemma zipf_pt_range w : word w -> 0 <= uR_std t w * T < T.
Proof. intros Hw. pose proof T_ge_1. pose proof (uR_std_range t w Hw). nra. Qed.

(* the inverse of the cumulative hat, as the model computes it (C02) *)
Definition zipf_inv (pt : R) : R := if s_is_1 then zipf_inv_eq1 pt else zipf_inv_ne1 (dyR s) pt.

Lemma zipf_inv_low pt : pt <= 1 -> zipf_inv pt = pt.
Proof.
  intros L. unfold zipf_inv, zipf_inv_eq1, zipf_inv_ne1. destruct (Rle_dec pt 1); [|lra]. destruct s_is_1; reflexivity.
Qed.

(* below the hat mass the inverse is below n, so the proposal floor(inv_b + 1) is in [1, n] *)
Lemma zipf_inv_range pt : 0 <= pt < T -> 0 <= zipf_inv pt < IZR N.
Proof.
  intros Hr. pose proof HN1 as H1. destruct (Rle_dec pt 1) as [L|L].
  - rewrite (zipf_inv_low pt L). destruct (Z.eq_dec N 1) as [E1|NE].
    + rewrite (T_at_1 E1) in Hr. rewrite E1. lra.
    + assert (2 <= N)%Z as H2 by lia. apply (IZR_le 2) in H2. lra.
  - unfold zipf_inv. unfold T in Hr. destruct s_is_1 eqn:E.
    + pose proof (zipf_inv_lt_n_eq1 (IZR N) pt H1 ltac:(lra)). lra.
    + pose proof (zipf_inv_lt_n_ne1 (IZR N) (dyR s) pt (s_is_1_false E) Hs H1 ltac:(lra)). lra.
Qed.

Definition zipf_invb (w : Z) (le : bool) : expr :=
  if le then u_std t w *. tt else if s_is_1 then eexp (u_std t w *. tt -. one) else epow (u_std t w *. tt *. oms +. se) q.

Lemma zipf_invb_eval w : word w ->
  evalX (zipf_invb w (rcmp CLe (uR_std t w * T) 1)) = Xreal (zipf_inv (uR_std t w * T)).
Proof.
  intros Hw. pose proof (zipf_pt_range w Hw) as Hr. pose proof (zipf_pt_eval w) as Ept. pose proof HN1 as H1.
  set (pt := uR_std t w * T) in * .
  unfold zipf_invb, rcmp. destruct (Rle_dec pt 1) as [L|L]; [rewrite (zipf_inv_low pt L); exact Ept|].
  unfold zipf_inv, zipf_inv_eq1, zipf_inv_ne1. destruct (Rle_dec pt 1) as [L'|_]; [contradiction|].
  unfold T in Hr. destruct s_is_1 eqn:E.
  - auto with evalx.
  - pose proof (s_is_1_false E) as Hs1. pose proof (inv_oms_eval Hs1). pose proof oms_eval.
    pose proof (zipf_inv_base_pos (IZR N) (dyR s) pt Hs1 Hs H1 ltac:(lra)). unfold se. auto with evalx.
Qed.

(* the ratio as coded: inv_b^s is only computed for x > 1, where inv_b >= 1 *)
Lemma zipf_ratio_eval invb y (x : Z) : evalX invb = Xreal y -> (1 <= x)%Z -> ((1 < x)%Z -> 0 < y) ->
  evalX (if (1 <? x)%Z then epow (num x) (eneg se) *. epow invb se else epow (num x) (eneg se))
  = Xreal (zipf_ratio (dyR s) (IZR x) y).
Proof.
  intros Ey Hx Hy. apply (IZR_le 1) in Hx as HxR.
  pose proof (pow_eval _ _ _ _ (num_eval x) (neg_eval _ _ (dyx_eval s)) ltac:(lra)) as E0.
  unfold zipf_ratio. destruct (Z.ltb_spec 1 x) as [L|L].
  - apply (IZR_lt 1) in L as LR. destruct (Rlt_dec 1 (IZR x)); [|lra].
    apply mul_eval; [exact E0|]. apply pow_eval; [exact Ey|apply dyx_eval|apply Hy, L].
  - apply (IZR_le x 1) in L. destruct (Rlt_dec 1 (IZR x)); [lra|exact E0].
Qed.

(* the acceptance event of the rejection-inversion loop on the model (C02) *)
Lemma zipf_loop_event fuel : forall ws, Forall word ws ->
  allout (fun r => exists P Y, 0 <= P < 1 /\ 0 <= Y < 1 /\ fst r = Zfloor (zipf_inv (P * T) + 1) /\ (1 <= fst r <= N)%Z /\
                   Y < zipf_ratio (dyR s) (IZR (fst r)) (zipf_inv (P * T)))
         nopanic (zipf_loop fuel t s_is_1 se oms q tt ws).
Proof.
  induction fuel as [|f IH]; intros ws Hw; [exact nopanic2|].
  destruct ws as [|w ws]; cbn [zipf_loop]; lstep; [exact nopanic1|].
  apply Forall_cons_iff in Hw as [Hw0 Hws].
  pose proof (uR_std_range t w Hw0) as HP. pose proof (zipf_inv_range _ (zipf_pt_range w Hw0)) as Hi.
  pose proof (zipf_invb_eval w Hw0) as Einv.
  refine (ask_values _ _ _ _ _ (zipf_pt_eval w) one_eval _).
  fold (zipf_invb w (rcmp CLe (uR_std t w * T) 1)).
  set (invb := zipf_invb w (rcmp CLe (uR_std t w * T) 1)) in * . set (y := zipf_inv (uR_std t w * T)) in * .
  apply (sfloor_value _ _ _ _ _ _ (add_eval _ _ _ _ Einv one_eval)).
  pose proof (floor_plus1_range y N Hi) as Hx. pose proof (Zfloor_lb (y + 1)) as Hxy. set (x := Zfloor (y + 1)) in * .
  assert ((1 < x)%Z -> 0 < y) as Hy by (intros L; assert (2 <= x)%Z as L2 by lia; apply (IZR_le 2) in L2; lra).
  pose proof (zipf_ratio_eval invb y x Einv ltac:(lia) Hy) as Eratio.
  destruct ws as [|w2 ws2]; lstep; [exact nopanic1|]. apply Forall_cons_iff in Hws as [Hw2 Hws2].
  refine (ask_values _ _ _ _ _ (u_std_eval t w2) Eratio _).
  unfold rcmp. destruct (Rlt_dec (uR_std t w2) (zipf_ratio (dyR s) (IZR x) y)) as [G|G]; lstep; [|apply IH, Hws2].
  exists (uR_std t w), (uR_std t w2).
  split; [exact HP|]. split; [exact (uR_std_range t w2 Hw2)|]. split; [reflexivity|]. split; [exact Hx|exact G].
Qed.

Theorem zipf_event ws : Forall word ws ->
  allout (fun r => exists P Y, 0 <= P < 1 /\ 0 <= Y < 1 /\ fst r = Zfloor (zipf_inv (P * T) + 1) /\ (1 <= fst r <= N)%Z /\
                   Y < zipf_ratio (dyR s) (IZR (fst r)) (zipf_inv (P * T)))
         nopanic (zipf t n s ws).
Proof. intros Hw. unfold zipf. apply zipf_loop_event. exact Hw. Qed.

(* Zipf(n, s) for an integer n >= 1 and s >= 0: an integer in [1, n] (ideal model; the float program
   can return n + 1 on the largest draws: finding F6) *)
Theorem zipf_support ws : Forall word ws ->
  allout (fun r => (1 <= fst r <= N)%Z) nopanic (zipf t n s ws).
Proof. intros Hw. eapply allout_post; [apply zipf_event, Hw|]. intros r (P & Y & _ & _ & _ & H & _). exact H. Qed.
End Zipf.

Lemma psum_sum_f_R0 f n : psum f (S n) = sum_f_R0 f n.
Proof. induction n as [|n IH]; [cbn; ring|]. cbn [psum sum_f_R0] in * . rewrite IH. reflexivity. Qed.

Lemma binv_r_total (n : nat) p : 0 < p < 1 -> psum (binv_r n p) (S n) = 1.
Proof.
  intros Hp. rewrite <- (binom_pmf_total n p), <- psum_sum_f_R0.
  apply psum_ext. intros j Hj. apply binv_recurrence; [exact Hp|lia].
Qed.

(* in exact arithmetic the walk of BINV stops inside the support: u0 < 1 = r_0 + ... + r_n *)
Lemma binv_inner_le_n (n : nat) p : 0 < p < 1 -> forall fuel a s u r (x : nat) ws U0,
  evalX a = Xreal ((INR n + 1) * (p / (1 - p))) -> evalX s = Xreal (p / (1 - p)) ->
  evalX r = Xreal (binv_r n p x) -> evalX u = Xreal (U0 - psum (binv_r n p) x) -> U0 < 1 -> (x <= n)%nat ->
  allout (fun q => snd q = ws /\ match fst q with Some y => (Z.of_nat x <= y <= Z.of_nat n)%Z | None => True end)
         (fun c => c = 2%Z) (binv_inner fuel a s u r (Z.of_nat x) ws).
Proof.
  intros Hp. induction fuel as [|f IH]; intros a s u r x ws U0 Ea Es Er Eu HU Hx; [reflexivity|].
  cbn [binv_inner]. lstep. refine (ask_values _ _ _ _ _ Eu Er _). unfold rcmp.
  destruct (Rlt_dec (binv_r n p x) (U0 - psum (binv_r n p) x)) as [G|G]; lstep; [|split; [reflexivity|lia]].
  destruct (Z.ltb_spec 110 (Z.of_nat x + 1)) as [L|L]; lstep; [split; [reflexivity|exact I]|].
  assert (x < n)%nat as Hlt.
  { destruct (Nat.eq_dec x n) as [->|NE]; [|lia]. exfalso.
    pose proof (binv_r_total n p Hp) as T. cbn [psum] in T. lra. }
  replace (Z.of_nat x + 1)%Z with (Z.of_nat (S x)) by lia.
  eapply allout_post.
  - apply (IH a s _ _ (S x) ws U0 Ea Es); [|rewrite (sub_eval _ _ _ _ Eu Er); cbn [psum]; f_equal; ring|exact HU|lia].
    exact (mul_eval _ _ _ _ Er (btpe_g_eval a s _ _ (S x) ltac:(lia) Ea Es)).
  - intros [[y|] rest]; cbn [fst snd]; intros [A B]; (split; [exact A|]); [lia|exact I].
Qed.

Lemma binv_outer_le_n (n : nat) p : 0 < p < 1 -> forall fuel a s r ws,
  evalX a = Xreal ((INR n + 1) * (p / (1 - p))) -> evalX s = Xreal (p / (1 - p)) ->
  evalX r = Xreal ((1 - p) ^ n) -> Forall word ws ->
  allout (fun q => (0 <= fst q <= Z.of_nat n)%Z) nopanic (binv_outer fuel r a s ws).
Proof.
  intros Hp. induction fuel as [|f IH]; intros a s r ws Ea Es Er Hw; [exact nopanic2|].
  destruct ws as [|w ws']; cbn [binv_outer]; lstep; [exact nopanic1|].
  inversion Hw as [|? ? Hw0 Hws]; subst.
  pose proof (uR_std_range F64 w Hw0) as Hu.
  eapply allout_sbind; [apply (binv_inner_le_n n p Hp 112 a s (u_std F64 w) r 0 ws' (uR_std F64 w) Ea Es)| |].
  - exact Er.
  - rewrite u_std_eval. cbn [psum]. f_equal. ring.
  - lra.
  - lia.
  - intros c ->. exact nopanic2.
  - intros [y|] ws1; cbn [fst snd]; intros [-> B]; lstep; [lia|]. apply IH; assumption.
Qed.

(* Uniform::new(0., 1.): the top 52 bits of a word *)
Definition u52 (w : Z) : R := IZR (w / 2 ^ 12) * powerRZ 2 (-52).
Lemma u52_range w : word w -> 0 <= u52 w < 1.
Proof.
  intros [H0 H1]. unfold u52.
  assert (0 <= w / 2 ^ 12 < 2 ^ 52)%Z as [A B] by (split; [apply Z.div_pos|apply Z.div_lt_upper_bound]; lia).
  apply IZR_le in A. apply IZR_lt in B.
  change (powerRZ 2 (-52)) with (/ 2 ^ 52). rewrite (pow_IZR 2 52). change (Z.of_nat 52) with 52%Z.
  assert (0 < IZR (2 ^ 52)) as P by (apply (IZR_lt 0); reflexivity).
  split; [apply Rmult_le_pos; [exact A|left; apply Rinv_0_lt_compat, P]|].
  apply Rmult_lt_reg_r with (IZR (2 ^ 52)); [exact P|]. rewrite Rmult_assoc, Rinv_l by lra. lra.
Qed.
Lemma u52_eval w : evalX (Exact (Dy (w / 2 ^ 12) (-52))) = Xreal (u52 w).
Proof. cbn [evalX]. apply xdy_real. Qed.
Lemma u52_pos w : word w -> (w / 2 ^ 12 =? 0)%Z = false -> 0 < u52 w.
Proof.
  intros [Hw _] Hz. apply Z.eqb_neq in Hz. pose proof (Z.div_pos w (2 ^ 12) Hw ltac:(lia)).
  apply Rmult_lt_0_compat; [apply (IZR_lt 0); lia|apply powerRZ_lt; lra].
Qed.

(* the four regions of the hat, for constants with the values and the order that the set-up gives them *)
Section BtpeLoop.
Variables (n : Z) (pe : expr) (m : Z).
Variables (p1 x_m x_l x_r c p2 lambda_l lambda_r p3 p4 : expr).
Variables (P1 XM C LL P4 : R).
Hypothesis Ep1 : evalX p1 = Xreal P1.
Hypothesis Exm : evalX x_m = Xreal XM.
Hypothesis Exl : evalX x_l = Xreal (XM - P1).
Hypothesis Ec : evalX c = Xreal C.
Hypothesis Ep2 : evalX p2 = Xreal (P1 * (1 + 2 * C)).
Hypothesis Ell : evalX lambda_l = Xreal LL.
Hypothesis Ep4 : evalX p4 = Xreal P4.
Hypothesis Hn : (0 <= n <= U64MAX)%Z.
Hypothesis HP1 : 0 < P1 <= XM.
Hypothesis HXR : XM + P1 < IZR n.
Hypothesis HC : 0 < C.
Hypothesis HLL : 0 < LL.
Hypothesis HP4 : 0 <= P4.

Let post (q : Z * list Z) : Prop := (0 <= fst q <= n)%Z.

Lemma btpe_step5_ret (again : sampler Z) y v ws : (0 <= y <= n)%Z -> allout post nopanic (again ws) ->
  allout post nopanic
    ((o <- btpe_step5 n pe m x_m y v ;; match o with Some y => sret y | None => again end) ws).
Proof.
  intros Hy Ha. eapply allout_sbind; [apply btpe_step5_spec, Hy|intros ? []|].
  intros o ws' [A B]. cbn [fst snd] in A, B. subst ws'. destruct o as [y'|]; [|exact Ha].
  subst y'. lstep. exact Hy.
Qed.

(* a candidate y = floor(x), 0 <= x < n, of regions 2 and 3 *)
Lemma btpe_candidate (again : sampler Z) e x v ws : evalX e = Xreal x -> 0 <= x < IZR n ->
  allout post nopanic (again ws) ->
  allout post nopanic
    ((y <- f64_to_u64 e ;; o <- btpe_step5 n pe m x_m y v ;; match o with Some y => sret y | None => again end) ws).
Proof.
  intros E Hx Ha. eapply allout_sbind; [apply (f64_to_u64_spec e x ws n nopanic E Hx), Hn|auto|].
  intros y ws' [[= -> ->] Hy]. apply btpe_step5_ret; [lia|exact Ha].
Qed.

(* the candidates of regions 1 to 3 lie in [0, n) *)
Lemma btpe_region1 U V : 0 <= U <= P1 -> 0 <= V < 1 -> 0 <= XM - P1 * V + U < IZR n.
Proof. intros HU HV. assert (0 <= P1 * V < P1) by nra. lra. Qed.
Lemma btpe_region2 U : P1 < U <= P1 * (1 + 2 * C) -> 0 <= XM - P1 + (U - P1) / C < IZR n.
Proof.
  intros HU. assert (0 < (U - P1) / C) by (apply Rdiv_lt_0_compat; lra).
  assert ((U - P1) / C <= 2 * P1) by (apply Rcomplements.Rle_div_l; lra). lra.
Qed.
Lemma btpe_region3 V : 0 < V < 1 -> XM - P1 + ln V / LL < IZR n.
Proof.
  intros HV. assert (ln V / LL <= 0); [|lra].
  apply Rcomplements.Rle_div_l; [lra|]. rewrite Rmult_0_l, <- ln_1. left. apply ln_increasing; lra.
Qed.

Lemma btpe_loop_spec fuel : forall ws, Forall word ws ->
  allout post nopanic (btpe_loop n pe fuel m p1 x_m x_l x_r c p2 lambda_l lambda_r p3 p4 ws).
Proof.
  induction fuel as [|fu IH]; intros ws Hw; [exact nopanic2|].
  destruct ws as [|w1 [|w2 ws]]; cbn [btpe_loop]; cbv zeta; lstep; [exact nopanic1|exact nopanic1|].
  apply Forall_cons_iff in Hw as [Hw1 Hw]. apply Forall_cons_iff in Hw as [Hw2 Hws].
  specialize (IH ws Hws).
  pose proof (u52_range w1 Hw1) as HU1. pose proof (u52_range w2 Hw2) as HV.
  pose proof (u52_eval w2) as Ev. pose proof (mul_eval _ _ _ _ (u52_eval w1) Ep4) as Eu.
  assert (0 <= u52 w1 * P4) as HU by (apply Rmult_le_pos; lra).
  refine (ask_values _ _ _ _ _ Eu Ep1 _).
  unfold rcmp at 1. destruct (Rlt_dec P1 (u52 w1 * P4)) as [G1|G1]; cbn [negb].
  2: { (* region 1: x_m - p1 v + u with u <= p1 *)
    pose proof (add_eval _ _ _ _ (sub_eval _ _ _ _ Exm (mul_eval _ _ _ _ Ep1 Ev)) Eu) as E.
    eapply allout_post; [apply (f64_to_u64_spec _ _ ws n _ E); [apply btpe_region1; lra|apply Hn]|].
    intros q [-> Hy]. unfold post. cbn [fst]. lia. }
  lstep. refine (ask_values _ _ _ _ _ Eu Ep2 _).
  unfold rcmp at 1. destruct (Rlt_dec (P1 * (1 + 2 * C)) (u52 w1 * P4)) as [G2|G2]; cbn [negb].
  2: { (* region 2: x_l + (u - p1) / c with p1 < u <= p1 (1 + 2 c) *)
    lstep. intros xv xo _ _. destruct (rcmp CGt xv xo); [exact IH|].
    apply (btpe_candidate _ _ (XM - P1 + (u52 w1 * P4 - P1) / C)); [auto with evalx|apply btpe_region2; lra|exact IH]. }
  lstep. intros xu xp _ _. destruct (rcmp CGt xu xp); cbn [negb].
  2: { (* region 3: x_l + ln v / lambda_l, tested to be >= 0, with ln v <= 0 *)
    destruct (w2 / 2 ^ 12 =? 0)%Z eqn:VZ; [exact IH|].
    pose proof (u52_pos w2 Hw2 VZ) as HV0.
    pose proof (add_eval _ _ _ _ Exl (div_eval _ _ _ _ (ln_eval _ _ Ev HV0) Ell ltac:(lra))) as Ey.
    lstep. refine (ask_values _ _ _ _ _ Ey (num_eval 0) _).
    unfold rcmp at 1. destruct (Rlt_dec (XM - P1 + ln (u52 w2) / LL) 0) as [Ng|Ng]; [exact IH|].
    apply (btpe_candidate _ _ _ _ _ Ey); [|exact IH]. pose proof (btpe_region3 (u52 w2)). lra. }
  (* region 4: the saturating cast, then the explicit test y > n *)
  destruct (w2 / 2 ^ 12 =? 0)%Z eqn:VZ.
  { destruct (n <? U64MAX)%Z; [exact IH|]. lstep. discriminate. }
  unfold sfloor. cbn [sbind bind allout]. intros x0 _.
  set (y := Z.min (Z.max (Zfloor x0) 0) U64MAX).
  destruct (Z.ltb_spec n y) as [L|L]; [exact IH|].
  apply btpe_step5_ret; [unfold y in * ; unfold U64MAX in * ; lia|exact IH].
Qed.
End BtpeLoop.

Section BtpeSetupR.
Variables (N p : R).
Hypothesis Hp : 0 < p <= 1 / 2.
Hypothesis HA : 10 <= N * p.
Let q := 1 - p.
Let V := N * p * q.
Let SD := sqrt V.
Let e1 := 2195 / 1000 * SD - 46 / 10 * q.
Let fm := N * p + p.

Lemma btpe_N20 : 20 <= N. Proof. destruct Hp. nra. Qed.
Lemma btpe_V_bounds : 5 <= V /\ V <= N * p /\ V <= N / 4 /\ 10 * q <= V.
Proof.
  unfold V, q. destruct Hp as [Hp0 Hp1]. pose proof btpe_N20 as N20.
  assert (p * (1 - p) <= 1 / 4) as Pq by nra.
  assert (0 <= (N * p - 10) * (1 / 2 - p)) as M1 by (apply Rmult_le_pos; lra).
  assert (0 <= (N * p - 10) * (1 - p)) as M2 by (apply Rmult_le_pos; lra).
  assert (N * (p * (1 - p)) <= N * (1 / 4)) as M3 by (apply Rmult_le_compat_l; lra).
  repeat split; nra.
Qed.
Lemma btpe_S_sq : SD * SD = V /\ 0 <= SD.
Proof. pose proof btpe_V_bounds as [H _]. split; [apply sqrt_sqrt; lra|apply sqrt_pos]. Qed.

(* p1 = floor(e1) + 1/2 >= 2.5 *)
Lemma btpe_e1_ge_2 : 2 <= e1.
Proof.
  unfold e1. pose proof btpe_S_sq as [SS S0]. pose proof btpe_V_bounds as (V5 & _ & _ & Vq).
  assert (1 / 2 <= q <= 1) by (unfold q; destruct Hp; lra).
  (* SD >= (2 + 4.6 q) / 2.195 since SD^2 >= 10 q >= ((2 + 4.6 q)/2.195)^2 *)
  destruct (Rle_lt_dec (2 + 46 / 10 * q) (2195 / 1000 * SD)) as [G|G]; [lra|]. exfalso.
  assert ((2195 / 1000 * SD) * (2195 / 1000 * SD) < (2 + 46 / 10 * q) * (2 + 46 / 10 * q)) by nra.
  nra.
Qed.
(* x_l = m - floor(e1) >= 0 : e1 <= f_m - 1 < m *)
Lemma btpe_e1_le_fm : e1 <= fm - 1.
Proof.
  unfold e1, fm. pose proof btpe_S_sq as [SS S0]. pose proof btpe_V_bounds as (V5 & VA & _ & _).
  assert (1 / 2 <= q <= 1) by (unfold q; destruct Hp; lra). destruct Hp.
  destruct (Rle_lt_dec (2195 / 1000 * SD) (N * p - 1)) as [G|G]; [lra|]. exfalso. nra.
Qed.
(* x_r = m + floor(e1) + 1 <= n - 1 : f_m + e1 <= N - 2 *)
Lemma btpe_xr_le : fm + e1 <= N - 2.
Proof.
  unfold e1, fm. pose proof btpe_S_sq as [SS S0]. pose proof btpe_V_bounds as (V5 & _ & V4 & _).
  pose proof btpe_N20. assert (1 / 2 <= q <= 1) by (unfold q; destruct Hp; lra). destruct Hp.
  assert (2195 / 1000 * SD <= N / 2 - 2 / 10).
  { destruct (Rle_lt_dec (2195 / 1000 * SD) (N / 2 - 2 / 10)) as [G|G]; [lra|]. exfalso. nra. }
  unfold q in * . nra.
Qed.

(* the integers k = floor(e1) and m = floor(f_m) *)
Lemma btpe_floors : 2 <= IZR (Zfloor e1) <= IZR (Zfloor fm) - 1 /\ IZR (Zfloor fm) + IZR (Zfloor e1) + 2 <= N.
Proof.
  pose proof btpe_e1_ge_2. pose proof btpe_e1_le_fm. pose proof btpe_xr_le.
  pose proof (floor_bounds e1). pose proof (floor_bounds fm).
  assert (2 <= Zfloor e1 <= Zfloor fm - 1)%Z as [A B].
  { assert (1 < Zfloor e1 < Zfloor fm)%Z; [split; apply lt_IZR; lra|lia]. }
  apply IZR_le in A, B. rewrite minus_IZR in B. lra.
Qed.
End BtpeSetupR.

Lemma plus_half_eval k : evalX (plus_half k) = Xreal (IZR k + / 2).
Proof.
  unfold plus_half. destruct (Z.abs k <? 2 ^ 51)%Z.
  - cbn [evalX]. rewrite xdy_real. f_equal. rewrite plus_IZR, mult_IZR.
    change (powerRZ 2 (-1)) with (/ (2 * 1))%R. simpl (IZR 2). simpl (IZR 1). field.
  - apply add_eval; [apply zf_eval|apply half_eval].
Qed.

(* the constants that the set-up derives from p1 = k + 1/2 and x_m = m + 1/2, where
   2 <= k <= m - 1, m <= f_m < m + 1 and m + k + 2 <= n: every division is defined, and the
   values are those that the loop needs *)
Section BtpeConstants.
Variables (n m : Z) (pe q f_m p1 x_m : expr) (p fm K : R).
Hypothesis Epe : evalX pe = Xreal p.
Hypothesis Eqc : evalX q = Xreal (1 - p).
Hypothesis Efm : evalX f_m = Xreal fm.
Hypothesis Ep1 : evalX p1 = Xreal (K + / 2).
Hypothesis Exm : evalX x_m = Xreal (IZR m + / 2).
Hypothesis Hp : 0 < p <= 1 / 2.
Hypothesis HK : 2 <= K <= IZR m - 1.
Hypothesis HM : IZR m <= fm < IZR m + 1.
Hypothesis HN : IZR m + K + 2 <= IZR n.
Hypothesis Hn : (0 <= n <= U64MAX)%Z.

Let x_l := x_m -. p1.
Let x_r := x_m +. p1.
Let c := dec 134 3 +. dec 205 1 /. (dec 153 1 +. zf m).
Let p2 := p1 *. (one +. num 2 *. c).
Let lam (a : expr) := a *. (one +. half *. a).
Let al := (f_m -. x_l) /. (f_m -. x_l *. pe).
Let ar := (x_r -. f_m) /. (x_r *. q).
Let p3 := p2 +. c /. lam al.
Let p4 := p3 +. c /. lam ar.

Let XL := IZR m + / 2 - (K + / 2).
Let XR := IZR m + / 2 + (K + / 2).
Let C := 134 / 1000 + 205 / 10 / (153 / 10 + IZR m).
Let LAM (a : R) := a * (1 + / 2 * a).
Let AL := (fm - XL) / (fm - XL * p).
Let AR := (XR - fm) / (XR * (1 - p)).

Lemma btpe_C_pos : 0 < C.
Proof. assert (0 < 205 / 10 / (153 / 10 + IZR m)); [apply Rdiv_lt_0_compat; lra|unfold C; lra]. Qed.
Lemma btpe_LAM_pos a : 0 < a -> 0 < LAM a.
Proof. intros H. apply Rmult_lt_0_compat; lra. Qed.
Lemma btpe_DL_pos : 0 < fm - XL * p.
Proof. unfold XL. assert ((IZR m - K) * p <= (IZR m - K) * (1 / 2)); [apply Rmult_le_compat_l; lra|lra]. Qed.
Lemma btpe_AL_pos : 0 < AL.
Proof. apply Rdiv_lt_0_compat; [unfold XL; lra|apply btpe_DL_pos]. Qed.
Lemma btpe_DR_pos : 0 < XR * (1 - p).
Proof. apply Rmult_lt_0_compat; unfold XR; lra. Qed.
Lemma btpe_AR_pos : 0 < AR.
Proof. apply Rdiv_lt_0_compat; [unfold XR; lra|apply btpe_DR_pos]. Qed.

Lemma btpe_xl_eval : evalX x_l = Xreal XL. Proof. unfold x_l, XL. auto with evalx. Qed.
Lemma btpe_xr_eval : evalX x_r = Xreal XR. Proof. unfold x_r, XR. auto with evalx. Qed.
Lemma btpe_c_eval : evalX c = Xreal C. Proof. unfold c, C. auto 6 with evalx. Qed.
Lemma btpe_p2_eval : evalX p2 = Xreal ((K + / 2) * (1 + 2 * C)).
Proof. pose proof btpe_c_eval. unfold p2. auto with evalx. Qed.
Lemma btpe_lam_eval a x : evalX a = Xreal x -> evalX (lam a) = Xreal (LAM x).
Proof. intros E. unfold lam, LAM. auto with evalx. Qed.
Lemma btpe_al_eval : evalX al = Xreal AL.
Proof. pose proof btpe_DL_pos. pose proof btpe_xl_eval. unfold al, AL. auto with evalx. Qed.
Lemma btpe_ar_eval : evalX ar = Xreal AR.
Proof. pose proof btpe_DR_pos. pose proof btpe_xr_eval. unfold ar, AR. auto with evalx. Qed.
Lemma btpe_p4_eval : evalX p4 = Xreal ((K + / 2) * (1 + 2 * C) + C / LAM AL + C / LAM AR).
Proof.
  pose proof (btpe_LAM_pos _ btpe_AL_pos). pose proof (btpe_LAM_pos _ btpe_AR_pos).
  apply add_eval; [apply add_eval; [exact btpe_p2_eval|]|]; (apply div_eval; [exact btpe_c_eval|apply btpe_lam_eval|lra]); [exact btpe_al_eval|exact btpe_ar_eval].
Qed.

Lemma btpe_constants_loop ws : Forall word ws ->
  allout (fun r => (0 <= fst r <= n)%Z) nopanic (btpe_loop n pe 64 m p1 x_m x_l x_r c p2 (lam al) (lam ar) p3 p4 ws).
Proof.
  pose proof btpe_C_pos as C0.
  pose proof (btpe_LAM_pos _ btpe_AL_pos) as LL0. pose proof (btpe_LAM_pos _ btpe_AR_pos) as LR0.
  apply (btpe_loop_spec n pe m p1 x_m x_l x_r c p2 (lam al) (lam ar) p3 p4 _ _ _ _ _
           Ep1 Exm btpe_xl_eval btpe_c_eval btpe_p2_eval (btpe_lam_eval _ _ btpe_al_eval) btpe_p4_eval Hn); try lra.
  assert (0 < C / LAM AL /\ 0 < C / LAM AR) as [CL CR] by (split; apply Rdiv_lt_0_compat; assumption).
  assert (0 < (K + / 2) * (1 + 2 * C)); [apply Rmult_lt_0_compat; lra|lra].
Qed.
End BtpeConstants.

(* BTPE(n, p) for 0 < p <= 1/2, n p >= 10, n a u64: the result is in [0, n]; neither f64_to_u64
   assertion (set-up, regions 1-3) nor the u64 subtraction of step 5.3 can fail *)
Theorem btpe_support n pe p flipped ws : evalX pe = Xreal p -> 0 < p <= 1 / 2 -> 10 <= IZR n * p ->
  (0 <= n <= U64MAX)%Z -> Forall word ws ->
  allout (fun q => (0 <= fst q <= n)%Z) nopanic (btpe n pe flipped ws).
Proof.
  intros Epe Hp HA Hn Hw. unfold btpe.
  destruct (btpe_floors (IZR n) p Hp HA) as [HK HN]. pose proof (btpe_V_bounds (IZR n) p Hp HA) as [V5 _].
  set (e1 := 2195 / 1000 * sqrt (IZR n * p * (1 - p)) - 46 / 10 * (1 - p)) in * .
  set (fm := IZR n * p + p) in * . pose proof (floor_bounds fm) as HM.
  assert (Eqc : evalX (one -. pe) = Xreal (1 - p)) by auto with evalx.
  assert (Efm : evalX (zf n *. pe +. pe) = Xreal fm) by (unfold fm; auto with evalx).
  pose proof (sqrt_eval (zf n *. pe *. (one -. pe)) (IZR n * p * (1 - p)) ltac:(auto with evalx) ltac:(lra)) as Es.
  assert (Ee1 : evalX (dec 2195 3 *. esqrt (zf n *. pe *. (one -. pe)) -. dec 46 1 *. (one -. pe)) = Xreal e1)
    by (unfold e1; auto with evalx).
  (* p1k = floor(e1) *)
  apply (sfloor_value _ _ _ _ _ _ Ee1).
  (* m = floor(f_m) *)
  eapply allout_sbind; [apply (f64_to_u64_spec _ fm ws U64MAX nopanic Efm); [|lia]|auto|].
  { destruct Hn as [_ Hn]. apply IZR_le in Hn. unfold fm at 1. nra. }
  intros m ws' [[= -> ->] _]. cbv zeta.
  pose proof (plus_half_eval (Zfloor e1)) as Ep1. pose proof (plus_half_eval (Zfloor fm)) as Exm.
  eapply allout_sbind; [exact (btpe_constants_loop n _ pe _ _ _ _ p fm _ Epe Eqc Efm Ep1 Exm Hp HK HM HN Hn ws Hw)|auto|].
  intros y ws2 Hy. cbn [fst] in Hy. lstep. destruct flipped; lia.
Qed.

(* Knuth's loop returns k only if the product of k uniforms exceeded exp(-lambda); every binary64
   uniform is at most 1 - 2^-53, so k = 0 or exp(-lambda) < (1 - 2^-53)^k *)
Definition x53 : R := / 2 ^ 53.
Lemma x53_range : 0 < x53 <= 1.
Proof.
  unfold x53. assert (1 <= 2 ^ 53) by (apply pow_R1_Rle; lra). split; [apply Rinv_0_lt_compat; lra|].
  apply Rle_trans with (/ 1); [apply Rinv_le_contravar; lra|rewrite Rinv_1; lra].
Qed.
Lemma uR_std64_le w : word w -> 0 <= uR_std F64 w <= 1 - x53.
Proof.
  intros Hw. pose proof (top53_range w Hw) as [A B]. unfold uR_std, x53.
  apply IZR_le in A, B. rewrite minus_IZR, IZR_2_53 in B. simpl (IZR 1) in B. simpl (IZR 0) in A.
  assert (0 < 2 ^ 53) by (apply pow_lt; lra). split.
  - apply div_ge_0; assumption.
  - apply Rmult_le_reg_r with (2 ^ 53); [assumption|]. unfold Rdiv. rewrite Rmult_assoc, Rinv_l by lra.
    rewrite Rmult_minus_distr_r, Rinv_l by lra. lra.
Qed.

Lemma knuth_loop_bound fuel : forall el EL p P (r : nat) ws, Forall word ws ->
  evalX el = Xreal EL -> evalX p = Xreal P -> 0 <= P <= (1 - x53) ^ r -> (1 <= r)%nat ->
  (r = 1%nat \/ EL < (1 - x53) ^ (r - 1)) ->
  allout (fun q => exists k : nat, fst q = Z.of_nat k /\ (k = 0%nat \/ EL < (1 - x53) ^ k)) nopanic
         (knuth_loop fuel F64 el p (Z.of_nat r) ws).
Proof.
  assert (0 <= 1 - x53 <= 1) as X by (pose proof x53_range; lra).
  induction fuel as [|f IH]; intros el EL p P r ws Hw Eel Ep HP Hr Hprev; [exact nopanic2|].
  cbn [knuth_loop]. lstep. refine (ask_values _ _ _ _ _ Ep Eel _).
  unfold rcmp. destruct (Rlt_dec EL P) as [G|G]; lstep.
  - destruct ws as [|w ws]; lstep; [exact nopanic1|]. apply Forall_cons_iff in Hw as [Hw0 Hws].
    pose proof (uR_std64_le w Hw0) as HU.
    replace (Z.of_nat r + 1)%Z with (Z.of_nat (S r)) by lia.
    apply (IH el EL _ (P * uR_std F64 w) (S r) ws Hws Eel).
    + auto with evalx.
    + split; [apply Rmult_le_pos; lra|]. rewrite <- tech_pow_Rmult, Rmult_comm.
      apply Rmult_le_compat; lra.
    + lia.
    + right. replace (S r - 1)%nat with r by lia. lra.
  - exists (r - 1)%nat. split; [lia|]. destruct Hprev as [->|H]; [left; reflexivity|right; exact H].
Qed.

Lemma exp_INR_mult x (n : nat) : exp (INR n * x) = exp x ^ n.
Proof.
  induction n as [|n IH]; [simpl; rewrite Rmult_0_l; apply exp_0|].
  rewrite S_INR, Rmult_plus_distr_r, Rmult_1_l, exp_plus, IH. simpl. ring.
Qed.

(* with lambda = n p', p' <= 2^-54: exp(-lambda) < (1 - 2^-53)^k forces k <= n *)
Lemma poisson_limit_le_n (N : nat) lam (k : nat) : 0 <= lam <= INR N * / 2 ^ 54 ->
  exp (- lam) < (1 - x53) ^ k -> (k <= N)%nat.
Proof.
  intros Hl H. pose proof x53_range as X.
  (* (1 - x)^k <= exp (- k x), so k x53 < lam <= N x53 / 2 *)
  assert ((1 - x53) ^ k <= exp (INR k * - x53)) as M.
  { rewrite exp_INR_mult. apply pow_incr. pose proof (exp_ineq1_le (- x53)). lra. }
  assert (- lam < INR k * - x53) as L by (apply exp_lt_inv; lra).
  assert (/ 2 ^ 54 = x53 / 2) as E54 by (unfold x53; change (2 ^ 54) with (2 * 2 ^ 53); rewrite Rinv_mult; lra).
  rewrite E54 in Hl. apply INR_le. nra.
Qed.

Lemma dy_1m_eval p : dyR (dy_1m p) = 1 - dyR p.
Proof.
  destruct p as [m e]. unfold dy_1m, dyR. destruct (Z.ltb_spec e 0) as [L|L]; cbn [fst snd].
  - rewrite minus_IZR, Rmult_minus_distr_r. f_equal.
    rewrite (IZR_Zpower radix2) by lia. rewrite bpow_powerRZ. change (IZR radix2) with 2.
    rewrite <- powerRZ_add by lra. replace (- e + e)%Z with 0%Z by lia. reflexivity.
  - rewrite minus_IZR, mult_IZR. rewrite (IZR_Zpower radix2) by lia. rewrite bpow_powerRZ. change (IZR radix2) with 2.
    simpl (powerRZ 2 0). simpl (IZR 1). ring.
Qed.
Lemma rounds_to_one_true p : rounds_to_one p = true -> dyR p <= / 2 ^ 54.
Proof.
  unfold rounds_to_one, dy_leb. rewrite dy_cmp_spec.
  destruct (Rcompare_spec (dyR p) (dyR (1, -54)%Z)) as [H|H|H]; try discriminate; intros _;
    unfold dyR at 2 in H; cbn [fst snd] in H; change (powerRZ 2 (-54)) with (/ 2 ^ 54) in H; lra.
Qed.

(* the two methods for n p < 10 *)
Section BinomialSmall.
Variables (n : Z) (pe : expr) (P : R).
Hypothesis Hn : (0 <= n)%Z.
Hypothesis Epe : evalX pe = Xreal P.
Let N := Z.to_nat n.

Lemma zf_eval_nat : evalX (zf n) = Xreal (INR N).
Proof. rewrite zf_eval. unfold N. rewrite INR_IZR_INZ, Z2Nat.id by exact Hn. reflexivity. Qed.

Lemma binomial_poisson_limit ws : 0 <= P <= / 2 ^ 54 -> Forall word ws ->
  allout (fun q => (0 <= fst q <= n)%Z) nopanic (knuth F64 (zf n *. pe) ws).
Proof.
  intros HP Hw. unfold knuth. destruct ws as [|w ws]; lstep; [exact nopanic1|].
  apply Forall_cons_iff in Hw as [Hw0 Hws].
  pose proof (mul_eval _ _ _ _ zf_eval_nat Epe) as Enp.
  eapply allout_post.
  - apply (knuth_loop_bound 1024 _ _ _ (uR_std F64 w) 1 ws Hws (exp_eval _ _ (neg_eval _ _ Enp)) (u_std_eval F64 w));
      [rewrite pow_1; apply uR_std64_le, Hw0|lia|left; reflexivity].
  - intros [r rest]; cbn [fst]. intros (k & -> & [->|Hk]); [lia|].
    apply (poisson_limit_le_n N (INR N * P)) in Hk; [unfold N in Hk; lia|].
    pose proof (pos_INR N). split; [apply Rmult_le_pos; lra|apply Rmult_le_compat_l; lra].
Qed.

Lemma binomial_binv (flipped : bool) ws : 0 < P < 1 -> Forall word ws ->
  allout (fun q => (0 <= fst q <= n)%Z) nopanic
    ((x <- binv_outer 64 (epow (one -. pe) (zf n)) ((zf n +. one) *. (pe /. (one -. pe))) (pe /. (one -. pe)) ;;
      sret (if flipped then n - x else x)%Z) ws).
Proof.
  intros HP Hw. pose proof (sub_eval _ _ _ _ one_eval Epe) as Eqc.
  pose proof (div_eval _ _ _ _ Epe Eqc ltac:(lra)) as Es.
  assert (Er : evalX (epow (one -. pe) (zf n)) = Xreal ((1 - P) ^ N)).
  { rewrite (pow_eval _ _ _ _ Eqc zf_eval_nat) by lra. f_equal. apply Rpower_pow. lra. }
  eapply allout_sbind;
    [exact (binv_outer_le_n N P HP 64 _ _ _ ws (mul_eval _ _ _ _ (add_eval _ _ _ _ zf_eval_nat one_eval) Es) Es Er Hw)|auto|].
  intros x ws' Hx. cbn [fst] in Hx. lstep. unfold N in Hx. rewrite Z2Nat.id in Hx by lia. destruct flipped; lia.
Qed.
End BinomialSmall.

(* after the flip for p > 1/2 *)
Lemma binomial_flip p : 0 < dyR p < 1 -> 0 < dyR (if dy_ltb (1, -1)%Z p then dy_1m p else p) <= 1 / 2.
Proof.
  intros Hp.
  assert (dyR (1, -1)%Z = / 2) as Hh by (unfold dyR; cbn [fst snd]; change (powerRZ 2 (-1)) with (/ (2 * 1)); lra).
  destruct (dy_ltb (1, -1)%Z p) eqn:F.
  - apply dy_ltb_true in F. rewrite dy_1m_eval. lra.
  - apply dy_ltb_false in F. lra.
Qed.

(* Binomial(n, p) for a u64 n and 0 <= p <= 1, every method (constant, Poisson limit, BINV, BTPE, with
   and without the p > 1/2 flip): the result is in [0, n] and no panic site is reachable *)
Theorem binomial_support n p ws : (0 <= n <= U64MAX)%Z -> 0 <= dyR p <= 1 -> Forall word ws ->
  allout (fun q => (0 <= fst q <= n)%Z) nopanic (binomial n p ws).
Proof.
  intros Hn Hp Hw. unfold binomial.
  destruct (dy_eqb p (0, 0)%Z) eqn:E0; [lstep; lia|].
  destruct (dy_eqb p (1, 0)%Z) eqn:E1; [lstep; lia|].
  apply dy_eqb_false in E0, E1. rewrite dyR_int in E0, E1.
  set (flipped := dy_ltb (1, -1)%Z p). set (p' := if flipped then dy_1m p else p).
  assert (0 < dyR p' <= 1 / 2) as Hp' by (apply binomial_flip; lra).
  cbv zeta. pose proof (dyx_eval p') as Epe. pose proof (mul_eval _ _ _ _ (zf_eval n) Epe) as Enp.
  lstep. refine (ask_values _ _ _ _ _ Enp (num_eval 10) _).
  unfold rcmp. destruct (Rlt_dec (IZR n * dyR p') 10) as [L|L].
  - destruct (rounds_to_one p') eqn:R1.
    + apply rounds_to_one_true in R1. apply (binomial_poisson_limit n _ _ (proj1 Hn) Epe); [lra|exact Hw].
    + apply (binomial_binv n _ _ (proj1 Hn) Epe); [lra|exact Hw].
  - apply (btpe_support n _ _ flipped ws Epe Hp'); [lra|exact Hn|exact Hw].
Qed.
