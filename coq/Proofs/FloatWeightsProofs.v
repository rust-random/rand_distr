(* Proofs/FloatWeightsProofs.v — facts about Model/FloatWeights.v that hold for ALL float weight
   lists, in both formats (generic prec/emax): comparison-with-zero case analyses, lengths, error
   characterisation and atomicity for the float WeightedTreeIndex.  The alias part is in
   Proofs/FloatWeightsAlias.v.                                                                  *)
From Coq Require Import ZArith List Bool Lia.
From Flocq Require Import Core.Core IEEE754.BinarySingleNaN.
From RD Require Import Model.Tree Model.FloatWeights.
From RD Require Proofs.TreeBasics.
Import ListNotations.

Section Fmt.
Variable prec emax : Z.
Context (Hp : Prec_gt_0 prec) (Hpe : Prec_lt_emax prec emax).
Notation float := (BinarySingleNaN.binary_float prec emax).
Notation fzero := (fzero prec emax).
Notation fge := (fge prec emax).
Notation fgt := (fgt prec emax).
Notation flt := (flt prec emax).
Notation fle := (fle prec emax).
Notation feq := (feq prec emax).
Notation fvalid_w := (fvalid_w prec emax).
Notation ftree_new := (ftree_new prec emax Hp Hpe).
Notation ftree_push := (ftree_push prec emax Hp Hpe).
Notation ftree_pop := (ftree_pop prec emax Hp Hpe).
Notation ftree_update := (ftree_update prec emax Hp Hpe).
Notation fstep := (fstep prec emax Hp Hpe).
Notation fclimb := (fclimb prec emax).
Notation fupd := (fupd prec emax).
Notation nthf := (nthf prec emax).

(* strictly negative: -inf or a negative finite non-zero number; -0.0 is NOT strictly negative *)
Definition fneg_strict (w : float) : bool :=
  match w with B754_infinity true | B754_finite true _ _ _ => true | _ => false end.
(* the weights rejected by `!(w >= 0.0)` *)
Definition fbad_w (w : float) : bool := is_nan w || fneg_strict w.

Lemma fge_zero_spec : forall w : float, fge w fzero = negb (fbad_w w).
Proof. intros [s|s| |s m e H]; try destruct s; reflexivity. Qed.

Lemma fle_zero_spec : forall w : float, fle fzero w = negb (fbad_w w).
Proof. intros [s|s| |s m e H]; try destruct s; reflexivity. Qed.

Lemma fvalid_w_spec : forall w, fvalid_w w = negb (fbad_w w).
Proof. exact fge_zero_spec. Qed.

Lemma fvalid_w_examples :
  fvalid_w (B754_zero true) = true /\ fvalid_w (B754_zero false) = true /\
  fvalid_w (B754_infinity false) = true /\ fvalid_w B754_nan = false /\
  fvalid_w (B754_infinity true) = false.
Proof. repeat split. Qed.

Lemma flt_zero_spec : forall w : float, flt w fzero = fneg_strict w.
Proof. intros [s|s| |s m e H]; try destruct s; reflexivity. Qed.

Lemma fgt_flt : forall x y : float, fgt x y = flt y x.
Proof.
  intros x y. unfold FloatWeights.fgt, FloatWeights.flt, fcmp. rewrite (Bcompare_swap _ _ x y).
  destruct (Bcompare x y) as [[| |]|]; reflexivity.
Qed.

Lemma fgt_not_feq : forall x y : float, fgt x y = true -> feq x y = false.
Proof.
  intros x y. unfold FloatWeights.fgt, FloatWeights.feq.
  destruct (fcmp prec emax x y) as [[| |]|]; auto; discriminate.
Qed.

Lemma fupd_length : forall (l : list float) i v, length (fupd l i v) = length l.
Proof. induction l; intros [|i] v; simpl; auto. Qed.

Lemma fold_left_length : forall (A : Type) (F : list float -> A -> list float),
  (forall t a, length (F t a) = length t) ->
  forall l t, length (fold_left F l t) = length t.
Proof. intros A F H. induction l; intros; simpl; auto. rewrite IHl. apply H. Qed.

Lemma fclimb_length : forall op d t i, length (fclimb op d t i) = length t.
Proof. intros. apply fold_left_length. intros. apply fupd_length. Qed.

Lemma fnew_loop_length : forall idx t, length (fnew_loop prec emax Hp Hpe idx t) = length t.
Proof. intros. apply fold_left_length. intros. apply fupd_length. Qed.

(* ancestors are strictly smaller: the walk never touches the start node *)
Lemma anc_aux_lt : forall f i p, In p (anc_aux f i) -> (p < i)%nat.
Proof.
  induction f; intros i p H; simpl in H; [contradiction|].
  destruct i as [|i']; [contradiction|].
  pose proof (TreeBasics.par_lt (S i') ltac:(lia)).
  destruct H as [<-|H]; [|apply IHf in H]; lia.
Qed.

Lemma nthf_fupd_other : forall (l : list float) i j v, i <> j -> nthf (fupd l i v) j = nthf l j.
Proof.
  unfold FloatWeights.nthf.
  induction l; intros [|i] [|j] v H; simpl; auto; congruence.
Qed.

Lemma fclimb_nth_ge : forall op d t i j, (i <= j)%nat -> nthf (fclimb op d t i) j = nthf t j.
Proof.
  intros op d t i j Hij. unfold FloatWeights.fclimb, anc.
  assert (H : forall p, In p (anc_aux i i) -> (p < j)%nat)
    by (intros p Hin; apply anc_aux_lt in Hin; lia).
  revert t H. generalize (anc_aux i i) as l.
  induction l; intros t H; simpl; auto.
  rewrite IHl by (intros; apply H; right; auto).
  apply nthf_fupd_other. specialize (H a (or_introl eq_refl)). lia.
Qed.

Lemma forallb_false_ex : forall (A : Type) (f : A -> bool) l,
  forallb f l = false <-> exists x, In x l /\ f x = false.
Proof.
  induction l; simpl.
  - split; [discriminate | intros [x [[] _]]].
  - rewrite andb_false_iff, IHl. split.
    + intros [H | [x [Hi Hx]]]; [exists a | exists x]; auto.
    + intros [x [[E|Hi] Hx]]; [subst; auto | right; exists x; auto].
Qed.

Theorem tree_float_new_errors : forall ws : list float,
  (* InvalidWeight iff some weight is NaN or strictly negative (-0.0 is accepted) *)
  (ftree_new ws = Err InvalidWeight <->
     exists w, In w ws /\ (is_nan w = true \/ fneg_strict w = true)) /\
  (* otherwise Ok with a state of the same length: never Overflow, never Panic *)
  ((forall w, In w ws -> is_nan w = false /\ fneg_strict w = false) ->
     exists t, ftree_new ws = Ok t /\ length t = length ws) /\
  ftree_new ws <> Err Overflow /\ ftree_new ws <> Err InsufficientNonZero /\
  ftree_new ws <> Err InvalidInput /\ ftree_new ws <> Panic.
Proof.
  intros ws. unfold FloatWeights.ftree_new.
  destruct (forallb fvalid_w ws) eqn:E.
  - rewrite forallb_forall in E. repeat split; try discriminate.
    + intros [w [Hi Hw]]. apply E in Hi. apply orb_true_iff in Hw.
      rewrite fvalid_w_spec, negb_true_iff in Hi. unfold fbad_w in Hi. congruence.
    + intros _. eexists; split; [reflexivity | apply fnew_loop_length].
  - apply forallb_false_ex in E. destruct E as [w [Hi Hw]].
    rewrite fvalid_w_spec, negb_false_iff in Hw. apply orb_true_iff in Hw.
    repeat split; try discriminate.
    + intros _. exists w. auto.
    + intros H. destruct (H w Hi). destruct Hw; congruence.
Qed.

Lemma ftree_push_eq : forall t w,
  ftree_push t w =
  if fbad_w w then Err InvalidWeight
  else Ok (fclimb (fadd prec emax Hp Hpe) w (t ++ [w]) (length t)).
Proof.
  intros. unfold FloatWeights.ftree_push. rewrite fvalid_w_spec, negb_involutive. reflexivity.
Qed.

Lemma ftree_pop_snd : forall t n, length t = S n -> snd (ftree_pop t) = Some (nthf t n).
Proof.
  intros t n L. unfold FloatWeights.ftree_pop, FloatWeights.nthf.
  replace n with (length t - 1)%nat by lia. rewrite <- (rev_nth t fzero (n := 0)) by lia.
  rewrite <- rev_length in L. destruct (rev t); [discriminate | reflexivity].
Qed.

Lemma ftree_update_spec : forall t i w,
  match ftree_update t i w with
  | Ok t' => fbad_w w = false /\ (i < length t)%nat /\ length t' = length t
  | Err e => fbad_w w = true /\ e = InvalidWeight
  | Panic => fbad_w w = false /\ (length t <= i)%nat
  end.
Proof.
  intros t i w. unfold FloatWeights.ftree_update, ftree_get_chk.
  rewrite fvalid_w_spec, negb_involutive.
  destruct (fbad_w w); [auto|]. destruct (Nat.ltb_spec i (length t)); [|auto].
  destruct (FloatWeights.fgt _ _ _ _); [|destruct (FloatWeights.flt _ _ _ _)];
    rewrite ?fclimb_length, ?fupd_length; auto.
Qed.

Theorem tree_float_len :
  (forall ws t, ftree_new ws = Ok t -> length t = length ws) /\
  (forall t w t', ftree_push t w = Ok t' -> length t' = S (length t)) /\
  (forall t, length (fst (ftree_pop t)) = Nat.pred (length t)) /\
  (forall t, snd (ftree_pop t) = None <-> t = []) /\
  (forall t i w t', ftree_update t i w = Ok t' -> length t' = length t) /\
  (forall t : list float, ftree_is_empty prec emax t = true <-> length t = 0%nat) /\
  (forall t : list float, ftree_len prec emax t = Z.of_nat (length t)).
Proof.
  repeat split.
  - intros ws t. unfold FloatWeights.ftree_new. destruct (forallb _ _); [|discriminate].
    intros [= <-]. apply fnew_loop_length.
  - intros t w t'. rewrite ftree_push_eq. destruct (fbad_w w); [discriminate|].
    intros [= <-]. rewrite fclimb_length, app_length. simpl. lia.
  - intros t. unfold FloatWeights.ftree_pop.
    rewrite <- (rev_involutive t) at 2. rewrite rev_length.
    destruct (rev t) as [|w r]; simpl; auto.
    rewrite fclimb_length, rev_length. reflexivity.
  - destruct t as [|a t]; auto.
    rewrite (ftree_pop_snd (a :: t) (length t)) by reflexivity. discriminate.
  - intros ->. reflexivity.
  - intros t i w t' H. pose proof (ftree_update_spec t i w) as S. rewrite H in S. apply S.
  - destruct t; simpl; [auto | discriminate].
  - destruct t; simpl; [auto | discriminate].
Qed.

(* pushing w and popping returns exactly w (the STATE after the pop need not be the old one:
   the ancestors were incremented and decremented with rounding) *)
Theorem tree_float_push_pop_value : forall t w t',
  ftree_push t w = Ok t' -> snd (ftree_pop t') = Some w.
Proof.
  intros t w t'. rewrite ftree_push_eq. destruct (fbad_w w); [discriminate|]. intros [= <-].
  rewrite (ftree_pop_snd _ (length t)).
  - rewrite fclimb_nth_ge by lia. unfold FloatWeights.nthf.
    rewrite app_nth2, Nat.sub_diag by lia. reflexivity.
  - rewrite fclimb_length, app_length. simpl. lia.
Qed.

Theorem tree_float_push_result : forall t w,
  (fbad_w w = true -> ftree_push t w = Err InvalidWeight) /\
  (fbad_w w = false -> exists t', ftree_push t w = Ok t').
Proof. intros t w. rewrite ftree_push_eq. split; intros ->; eauto. Qed.

Theorem tree_float_update_result : forall t i w,
  (fbad_w w = true -> ftree_update t i w = Err InvalidWeight) /\
  (fbad_w w = false -> (length t <= i)%nat -> ftree_update t i w = Panic) /\
  (fbad_w w = false -> (i < length t)%nat -> exists t', ftree_update t i w = Ok t').
Proof.
  intros t i w. pose proof (ftree_update_spec t i w) as S.
  destruct (ftree_update t i w) as [t'|e|]; intuition (subst; eauto; congruence || lia).
Qed.

(* one step of a history: an error leaves the state unchanged and is InvalidWeight (Overflow is
   unreachable for floats); a panic only arises from update with an out-of-range index *)
Lemma fstep_spec : forall t o,
  match snd (fstep t o) with
  | FErr e => fst (fstep t o) = t /\ e = InvalidWeight
  | FPanic => exists i w, o = FUpdate i w /\ (length t <= i)%nat
  | _ => True
  end.
Proof.
  intros t [w| |i w]; unfold FloatWeights.fstep.
  - rewrite ftree_push_eq. destruct (fbad_w w); simpl; auto.
  - destruct (ftree_pop t). exact I.
  - pose proof (ftree_update_spec t i w) as S.
    destruct (ftree_update t i w); simpl; [exact I | tauto | exists i, w; tauto].
Qed.

Theorem tree_float_error_atomic : forall t o e,
  snd (fstep t o) = FErr e -> fst (fstep t o) = t /\ e = InvalidWeight.
Proof. intros t o e H. pose proof (fstep_spec t o) as S. rewrite H in S. exact S. Qed.

Theorem tree_float_panic_only_bad_index : forall t o,
  snd (fstep t o) = FPanic -> exists i w, o = FUpdate i w /\ (length t <= i)%nat.
Proof. intros t o H. pose proof (fstep_spec t o) as S. rewrite H in S. exact S. Qed.

Theorem tree_float_sample_zero : forall (t : list float) target,
  feq (ftree_total prec emax t) fzero = true ->
  ftree_try_sample prec emax Hp Hpe t target = Err InsufficientNonZero.
Proof. intros t target H. unfold ftree_try_sample. rewrite H. reflexivity. Qed.

Lemma ftree_sample_target_not_err : forall (t : list float) target e,
  ftree_sample_target prec emax Hp Hpe t target <> Err e.
Proof.
  intros t target e. unfold ftree_sample_target.
  destruct (fdescend _ _ _ _ _ _ _ _) as [[i resid]|]; [|discriminate].
  destruct (negb _); [discriminate|].
  destruct (ftree_get_chk _ _ _ _ _ _); try discriminate.
  destruct (FloatWeights.flt _ _ _ _); discriminate.
Qed.

(* is_valid implies that try_sample does not return the error (but it may PANIC: C10_float) *)
Theorem tree_float_valid_not_err : forall (t : list float) target e,
  ftree_is_valid prec emax t = true -> ftree_try_sample prec emax Hp Hpe t target <> Err e.
Proof.
  intros t target e V. unfold ftree_try_sample.
  destruct t as [|r t']; [discriminate|]. simpl in V |- *.
  rewrite (fgt_not_feq _ _ V). apply ftree_sample_target_not_err.
Qed.

End Fmt.
