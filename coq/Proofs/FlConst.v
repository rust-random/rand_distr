(* Proofs/FlConst.v — float constants used by the generated programs (Gen/FlProg.v) and the hand-written ones: 2 = 1 + 1. *)
From Coq Require Import Reals Lra Lia.
From Flocq Require Import Core.Core IEEE754.BinarySingleNaN.
From RD Require Import Proofs.AffineFl.
Open Scope R_scope.

Section Fmt.
Variable prec emax : Z.
Context (Hp : Prec_gt_0 prec) (Hpe : Prec_lt_emax prec emax).
Notation float := (binary_float prec emax).

Definition Btwo : float := Bplus mode_NE Bone Bone.

Lemma Btwo_correct : B2R Btwo = 2 /\ is_finite Btwo = true.
Proof.
  pose proof (is_finite_Bone prec emax Hp Hpe) as F1. assert (0 <= 1)%Z as Z1 by lia.
  assert (rnd prec emax (B2R (Bone : float) + B2R (Bone : float)) = 2) as R.
  { rewrite Bone_correct. replace (1 + 1) with (bpow radix2 1) by (simpl; lra).
    apply rnd_id, (bpow_format prec emax Hp Hpe 1 Z1). }
  destruct (Bplus_value prec emax Hp Hpe Bone Bone F1 F1) as [V F].
  - rewrite R, Rabs_pos_eq by lra. apply (bpow_lt radix2 1), (emax_gt_1 prec emax Hp Hpe).
  - unfold Btwo. rewrite V. split; [exact R|exact F].
Qed.
End Fmt.
