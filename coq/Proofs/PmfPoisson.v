(* Proofs/PmfPoisson.v — Knuth's multiplication method (poisson.rs:193-201, KnuthMethod::sample):
       let mut result = 1; let mut p = rng.random();
       while p > self.exp_lambda { p = p * rng.random(); result = result + 1; }
       result - 1
   The uniforms are supplied as a list (None = list exhausted before the loop stopped).        *)
From Coq Require Import Reals Lra Lia List.
Import ListNotations.
Open Scope R_scope.

Fixpoint lprod (l : list R) : R :=
  match l with [] => 1 | u :: l' => u * lprod l' end.

(* state: p = current product, k = result - 1 *)
Fixpoint knuth_loop (e p : R) (us : list R) (k : nat) {struct us} : option nat :=
  if Rlt_dec e p then
    match us with
    | [] => None
    | u :: us' => knuth_loop e (p * u) us' (S k)
    end
  else Some k.

Definition knuth (e : R) (us : list R) : option nat :=
  match us with
  | [] => None
  | u0 :: us' => knuth_loop e u0 us' 0
  end.

Lemma knuth_loop_spec : forall e us p k0 k,
  knuth_loop e p us k0 = Some k <->
  exists i, k = (k0 + i)%nat /\ (i <= length us)%nat /\
    (forall j, (j < i)%nat -> e < p * lprod (firstn j us)) /\
    p * lprod (firstn i us) <= e.
Proof.
  intros e us. induction us as [|u us IH]; intros p k0 k.
  - cbn [knuth_loop]. destruct (Rlt_dec e p) as [Hlt|Hge].
    + split; [discriminate|]. intros [i [_ [Hi [_ Hle]]]]. simpl in Hi.
      assert (i = 0)%nat by lia. subst i. simpl in Hle. lra.
    + split.
      * intros H. injection H as <-. exists 0%nat. simpl. repeat split; try lia; lra.
      * intros [i [-> [Hi _]]]. simpl in Hi. f_equal. lia.
  - cbn [knuth_loop]. destruct (Rlt_dec e p) as [Hlt|Hge].
    + rewrite IH. split.
      * intros [i [-> [Hi [Hlo Hhi]]]]. exists (S i). simpl length. repeat split; try lia.
        -- intros [|j] Hj; simpl; [lra|]. specialize (Hlo j ltac:(lia)). lra.
        -- simpl. lra.
      * intros [i [-> [Hi [Hlo Hhi]]]]. destruct i as [|i]; [simpl in Hhi; lra|].
        exists i. simpl length in Hi. repeat split; try lia.
        -- intros j Hj. specialize (Hlo (S j) ltac:(lia)). simpl in Hlo. lra.
        -- simpl in Hhi. lra.
    + split.
      * intros H. injection H as <-. exists 0%nat. simpl. repeat split; try lia; lra.
      * intros [i [-> [Hi [Hlo _]]]]. destruct i as [|i]; [f_equal; lia|].
        specialize (Hlo 0%nat ltac:(lia)). simpl in Hlo. lra.
Qed.

(* General characterisation (no assumption on the uniforms): k is returned iff the first k
   partial products u0, u0 u1, ..., u0...u(k-1) all exceed e and the (k+1)-st does not. *)
Theorem knuth_spec : forall e us k,
  knuth e us = Some k <->
  (S k <= length us)%nat /\
  (forall j, (1 <= j <= k)%nat -> e < lprod (firstn j us)) /\
  lprod (firstn (S k) us) <= e.
Proof.
  intros e us k. destruct us as [|u0 us]; cbn [knuth].
  - split; [discriminate|]. intros [H _]. simpl in H. lia.
  - rewrite knuth_loop_spec. simpl length. split.
    + intros [i [-> [Hi [Hlo Hhi]]]]. split; [lia|]. split; [|exact Hhi].
      intros [|j] Hj; [lia|]. apply Hlo. lia.
    + intros [Hk [Hlo Hhi]]. exists k. split; [reflexivity|]. split; [lia|]. split; [|exact Hhi].
      intros j Hj. apply (Hlo (S j)). lia.
Qed.

Lemma lprod_firstn_step : forall us, Forall (fun u => 0 <= u <= 1) us ->
  forall j, 0 <= lprod (firstn (S j) us) <= lprod (firstn j us).
Proof.
  intros us H. induction H as [|u us Hu _ IH]; intros j.
  - rewrite !firstn_nil. simpl. lra.
  - destruct j as [|j]; [simpl; lra|]. specialize (IH j).
    rewrite !firstn_cons. cbn [lprod]. nra.
Qed.

Lemma lprod_firstn_mono : forall us, Forall (fun u => 0 <= u <= 1) us ->
  forall i j, (i <= j)%nat -> lprod (firstn j us) <= lprod (firstn i us).
Proof.
  intros us H i j Hij. induction Hij; [lra|].
  apply Rle_trans with (2 := IHHij). apply lprod_firstn_step, H.
Qed.

(* With uniforms in [0,1] and e = exp(-lambda) < 1 (lambda > 0): *)
Theorem knuth_form : forall e us k, e < 1 -> Forall (fun u => 0 <= u <= 1) us ->
  (knuth e us = Some k <->
   (S k <= length us)%nat /\ e < lprod (firstn k us) /\ lprod (firstn (S k) us) <= e).
Proof.
  intros e us k He Hus. rewrite knuth_spec. split.
  - intros [H1 [H2 H3]]. repeat split; try assumption.
    destruct k as [|k]; [simpl; exact He|]. apply H2. lia.
  - intros [H1 [H2 H3]]. repeat split; try assumption.
    intros j Hj. apply Rlt_le_trans with (1 := H2). apply lprod_firstn_mono; [exact Hus|lia].
Qed.

(* "the returned count is the number of partial products that exceed e" *)
Definition count_above (e : R) (us : list R) : nat :=
  length (filter (fun j => if Rlt_dec e (lprod (firstn j us)) then true else false)
                 (seq 1 (length us))).

Lemma filter_seq_threshold : forall (P : nat -> bool) len k a,
  (k <= len)%nat ->
  (forall j, (a <= j < a + k)%nat -> P j = true) ->
  (forall j, (a + k <= j < a + len)%nat -> P j = false) ->
  length (filter P (seq a len)) = k.
Proof.
  intros P len. induction len as [|len IH]; intros k a Hk Ht Hf.
  - simpl. lia.
  - simpl. destruct k as [|k].
    + rewrite Hf by lia. apply (IH 0%nat (S a)); [lia|intros; lia|]. intros j Hj. apply Hf. lia.
    + rewrite Ht by lia. simpl. f_equal. apply (IH k (S a)); [lia| |].
      * intros j Hj. apply Ht. lia.
      * intros j Hj. apply Hf. lia.
Qed.

Theorem knuth_count : forall e us k, Forall (fun u => 0 <= u <= 1) us ->
  knuth e us = Some k -> count_above e us = k.
Proof.
  intros e us k Hus H. apply knuth_spec in H. destruct H as [H1 [H2 H3]].
  unfold count_above. apply filter_seq_threshold; [lia| |].
  - intros j Hj. destruct (Rlt_dec e (lprod (firstn j us))) as [_|Hn]; [reflexivity|].
    exfalso. apply Hn. apply H2. lia.
  - intros j Hj. destruct (Rlt_dec e (lprod (firstn j us))) as [Hlt|_]; [|reflexivity].
    exfalso. assert (Hm := lprod_firstn_mono us Hus (S k) j ltac:(lia)). lra.
Qed.

Lemma lprod_def : lprod [] = 1 /\ forall u l, lprod (u :: l) = u * lprod l.
Proof. split; reflexivity. Qed.

Lemma knuth_loop_def : forall e p us k,
  knuth_loop e p us k =
  if Rlt_dec e p then
    match us with [] => None | u :: us' => knuth_loop e (p * u) us' (S k) end
  else Some k.
Proof. intros e p [|u us] k; reflexivity. Qed.

Lemma knuth_def : forall e,
  knuth e [] = None /\ forall u0 us, knuth e (u0 :: us) = knuth_loop e u0 us 0.
Proof. intros. split; reflexivity. Qed.

Lemma count_above_def : forall e us,
  count_above e us =
  length (filter (fun j => if Rlt_dec e (lprod (firstn j us)) then true else false)
                 (seq 1 (length us))).
Proof. reflexivity. Qed.
