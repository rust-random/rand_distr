(* Proofs/GuardProofs.v — C04, part 1: constructors whose validation consists of comparisons and
   classification of the arguments only.  Every theorem is for ALL floats of ANY binary format
   (prec, emax), in particular binary32 and binary64.                                          *)
From Coq Require Import ZArith List Bool String.
From Flocq Require Import Core.Core IEEE754.Binary IEEE754.Bits IEEE754.BinarySingleNaN.
From RD Require Import Model.Guards Model.GuardSpec Proofs.GuardLemmas Proofs.GuardArith.
Import ListNotations.

Section Fmt.
Variable prec emax : Z.
Context (Hp : Prec_gt_0 prec) (Hpe : Prec_lt_emax prec emax).
Notation float := (binary_float prec emax).

Theorem Normal_new_sound (mean std_dev : float) :
  agrees (Normal_new prec emax mean std_dev) (spec_Normal_new prec emax mean std_dev).
Proof. exact (chain_spec [_] [] _). Qed.

Theorem Normal_from_mean_cv_sound (mean cv : float) :
  agrees (Normal_from_mean_cv prec emax mean cv) (spec_Normal_from_mean_cv prec emax mean cv).
Proof. exact (chain_spec [_] [] _). Qed.

Theorem LogNormal_new_sound (mu sigma : float) :
  agrees (LogNormal_new prec emax mu sigma) (spec_LogNormal_new prec emax mu sigma).
Proof. exact (chain_spec [_] [] _). Qed.

Theorem Exp_new_sound (lambda : float) :
  agrees (Exp_new prec emax lambda) (spec_Exp_new prec emax lambda).
Proof.
  unfold Exp_new, spec_Exp_new, f_is_sign_negative, f_is_nan, v_lt, v_nan, Bltb, Bcompare.
  destruct lambda as [[|]|[|]| |[|] m e H]; cbn; auto.
Qed.

Theorem Gamma_new_sound (shape scale : float) :
  agrees (Gamma_new prec emax Hp Hpe shape scale) (spec_Gamma_new prec emax shape scale).
Proof.
  rewrite Gamma_new_eq, !not_fgt_zero. exact (chain_spec [_; _] [_] _).
Qed.

Theorem Beta_new_sound (alpha beta : float) :
  agrees (Beta_new prec emax alpha beta) (spec_Beta_new prec emax alpha beta).
Proof. unfold Beta_new. rewrite !not_fgt_zero. exact (chain_spec [_; _] [] _). Qed.

Theorem Triangular_new_sound (min max mode : float) :
  agrees (Triangular_new prec emax min max mode) (spec_Triangular_new prec emax min max mode).
Proof.
  unfold Triangular_new, spec_Triangular_new. rewrite negb_andb, !fge_le, !not_v_le.
  (* the second test also fires on a NaN bound, which the first has caught: one comparison after
     the other, the first that holds is a documented reason for the error returned *)
  destruct (v_lt _ _ max min); [apply agrees_err; reflexivity|].
  destruct (v_nan _ _ min); [apply agrees_err; reflexivity|].
  destruct (v_nan _ _ max); [apply agrees_err; reflexivity|].
  destruct (v_lt _ _ mode min); [apply agrees_err; reflexivity|].
  destruct (v_nan _ _ mode); [apply agrees_err; cbn; now rewrite orb_true_r|].
  destruct (v_lt _ _ max mode); [apply agrees_err; reflexivity|].
  now apply agrees_ok.
Qed.

Theorem Cauchy_new_sound (median scale : float) :
  agrees (Cauchy_new prec emax median scale) (spec_Cauchy_new prec emax median scale).
Proof. unfold Cauchy_new. rewrite not_fgt_zero. exact (chain_spec [_] [] _). Qed.

Theorem Pareto_new_sound (scale shape : float) :
  agrees (Pareto_new prec emax scale shape) (spec_Pareto_new prec emax scale shape).
Proof. unfold Pareto_new. rewrite !not_fgt_zero. exact (chain_spec [_; _] [] _). Qed.

Theorem Weibull_new_sound (scale shape : float) :
  agrees (Weibull_new prec emax scale shape) (spec_Weibull_new prec emax scale shape).
Proof. unfold Weibull_new. rewrite !not_fgt_zero. exact (chain_spec [_; _] [] _). Qed.

Theorem InverseGaussian_new_sound (mean shape : float) :
  agrees (InverseGaussian_new prec emax mean shape) (spec_InverseGaussian_new prec emax mean shape).
Proof. unfold InverseGaussian_new. rewrite !not_fgt_zero. exact (chain_spec [_; _] [] _). Qed.

Theorem Gumbel_new_sound (location scale : float) :
  agrees (Gumbel_new prec emax location scale) (spec_Gumbel_new prec emax location scale).
Proof. unfold Gumbel_new. rewrite fle_zero_inf_nan, inf_or_nan. exact (chain_spec [_; _] [] _). Qed.

Theorem Frechet_new_sound (location scale shape : float) :
  agrees (Frechet_new prec emax location scale shape) (spec_Frechet_new prec emax location scale shape).
Proof.
  unfold Frechet_new. rewrite !fle_zero_inf_nan, inf_or_nan. exact (chain_spec [_; _; _] [] _).
Qed.

Theorem SkewNormal_new_sound (location scale shape : float) :
  agrees (SkewNormal_new prec emax location scale shape)
         (spec_SkewNormal_new prec emax location scale shape).
Proof.
  unfold SkewNormal_new. rewrite not_finite_or_not_pos. exact (chain_spec [_; _] [] _).
Qed.

Theorem Zeta_new_sound (s : float) :
  agrees (Zeta_new prec emax Hp Hpe s) (spec_Zeta_new prec emax Hp Hpe s).
Proof.
  unfold Zeta_new. rewrite fgt_lt, not_v_lt, v_nan_one, orb_false_r. exact (chain_spec [_] [] _).
Qed.

Theorem Geometric_new_sound (p : float) :
  agrees (Geometric_new prec emax Hp Hpe p) (spec_Geometric_new prec emax Hp Hpe p).
Proof.
  unfold Geometric_new, spec_Geometric_new, f_is_finite. destruct (is_finite p) eqn:F.
  - (* on a finite p the test is the documented one *)
    rewrite negb_andb, !fle_le, !not_v_le, v_nan_one.
    replace (v_nan _ _ p) with false by (symmetry; exact (is_finite_not_nan _ _ p F)).
    rewrite !orb_false_r. exact (chain_spec [_] [] _).
  - (* NaN, or an infinity, which lies beyond 0 or beyond 1 *)
    apply agrees_err. destruct (one_struct prec emax Hp Hpe) as (m & e & H & ->).
    now destruct p as [|[|]| |].
Qed.

End Fmt.
