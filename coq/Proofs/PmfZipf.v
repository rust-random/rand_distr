(* Proofs/PmfZipf.v — the rejection sampler for Zipf(n, s) (zipf.rs:102-166, after J. Crease).

   The code does not use Hörmann–Derflinger rejection-inversion; it samples a continuous Y on
   [0, n] with (unnormalised) density  hat(y) = 1 for y <= 1,  y^-s for y >= 1,  by inversion:
     new (112-125):   q = 1/(1-s);  t = (n^(1-s) - s) * q   (s <> 1),   t = 1 + ln n   (s = 1)
                      -- t is the total mass  1 + int_1^n y^-s dy  of the hat
     inv_cdf (132-141): pt = p*t;  pt (pt <= 1);  (pt*(1-s) + s)^q  (s <> 1);  exp(pt - 1)  (s = 1)
     sample (153-165): inv_b = inv_cdf(U); x = floor(inv_b + 1);
                       ratio = x^-s  [* inv_b^s  if x > 1];  accept x if V < ratio
   Here: t is the hat mass (zipf_hat_mass_ne1, _eq1), inv_cdf inverts the cumulative hat (zipf_inv_cdf_ne1, _eq1),
   hat(y) * ratio = x^-s on [x-1, x) with ratio in (0,1] (zipf_accept_identity, zipf_ratio_range),
   hence the accepted mass of x is int_{x-1}^{x} hat * ratio = x^-s (zipf_accept_mass).          *)
From Coq Require Import Reals Lra.
From Coquelicot Require Import Coquelicot.
From RD Require Import Proofs.RejectTools Proofs.PmfZeta.
Open Scope R_scope.

Definition zipf_hat (s y : R) : R := if Rle_dec y 1 then 1 else Rpower y (- s).

(* cumulative hat mass  int_0^y hat  for y >= 0 *)
Definition zipf_Hcum_ne1 (s y : R) : R :=
  if Rle_dec y 1 then y else 1 + (Rpower y (1 - s) - 1) / (1 - s).
Definition zipf_Hcum_eq1 (y : R) : R :=
  if Rle_dec y 1 then y else 1 + ln y.

Definition zipf_t_ne1 (n s : R) : R := (Rpower n (1 - s) - s) * (1 / (1 - s)).
Definition zipf_t_eq1 (n : R) : R := 1 + ln n.

Definition zipf_inv_ne1 (s pt : R) : R :=
  if Rle_dec pt 1 then pt else Rpower (pt * (1 - s) + s) (1 / (1 - s)).
Definition zipf_inv_eq1 (pt : R) : R :=
  if Rle_dec pt 1 then pt else exp (pt - 1).

(* ratio as coded: x^-s, times inv_b^s when x > 1 *)
Definition zipf_ratio (s x y : R) : R :=
  if Rlt_dec 1 x then Rpower x (- s) * Rpower y s else Rpower x (- s).

Lemma is_derive_Rpower : forall z x, 0 < x ->
  is_derive (fun y => Rpower y z) x (z * Rpower x (z - 1)).
Proof. intros z x Hx. apply is_derive_Reals. apply derivable_pt_lim_power. exact Hx. Qed.

Lemma continuous_Rpower : forall z x, 0 < x -> continuous (fun y => Rpower y z) x.
Proof.
  intros z x Hx.
  apply (ex_derive_continuous (K := R_AbsRing) (V := R_NormedModule) (fun y => Rpower y z) x).
  eexists. apply is_derive_Rpower. exact Hx.
Qed.

(* the integral of y^-s over an interval of positive reals, from any primitive *)
Lemma is_RInt_Rpower : forall (F : R -> R) s a b, 0 < a -> 0 < b ->
  (forall x, 0 < x -> is_derive F x (Rpower x (- s))) ->
  is_RInt (fun y => Rpower y (- s)) a b (F b - F a).
Proof.
  intros F s a b Ha Hb HF.
  assert (Hpos : forall x, Rmin a b <= x <= Rmax a b -> 0 < x).
  { intros x [Hx _]. apply Rlt_le_trans with (2 := Hx). apply Rmin_glb_lt; assumption. }
  apply (is_RInt_derive F (fun y => Rpower y (- s))).
  - intros x Hx. apply HF, Hpos, Hx.
  - intros x Hx. apply continuous_Rpower, Hpos, Hx.
Qed.

(* mass of the hat on [0,1] is 1 (constant density 1), on [1,n] the integral of y^-s *)
Theorem zipf_hat_mass_ne1 : forall n s, s <> 1 -> 1 <= n ->
  is_RInt (fun y => Rpower y (- s)) 1 n (zipf_t_ne1 n s - 1).
Proof.
  intros n s Hs Hn. set (F := fun y => Rpower y (1 - s) / (1 - s)).
  replace (zipf_t_ne1 n s - 1) with (F n - F 1)
    by (unfold F, zipf_t_ne1; rewrite Rpower_1_base; field; lra).
  apply (is_RInt_Rpower F); try lra. intros x Hx. unfold F. auto_derive.
  - eexists. apply is_derive_Rpower, Hx.
  - erewrite is_derive_unique by apply is_derive_Rpower, Hx.
    replace (1 - s - 1) with (- s) by ring. field. lra.
Qed.

Theorem zipf_hat_mass_eq1 : forall n, 1 <= n ->
  is_RInt (fun y => Rpower y (- (1))) 1 n (zipf_t_eq1 n - 1).
Proof.
  intros n Hn. replace (zipf_t_eq1 n - 1) with (ln n - ln 1) by (unfold zipf_t_eq1; rewrite ln_1; ring).
  apply (is_RInt_Rpower ln); try lra.
  intros x Hx. rewrite Rpower_Ropp, Rpower_1 by exact Hx. auto_derive; [exact Hx|ring].
Qed.

(* t = Hcum(n), so the cumulative hat is the integral of the hat from 1 on *)
Theorem zipf_t_is_Hcum_ne1 : forall n s, s <> 1 -> 1 <= n ->
  zipf_t_ne1 n s = if Rle_dec n 1 then 1 else zipf_Hcum_ne1 s n.
Proof.
  intros n s Hs Hn. unfold zipf_t_ne1, zipf_Hcum_ne1. destruct (Rle_dec n 1).
  - assert (n = 1) by lra. subst n. rewrite Rpower_1_base. field. lra.
  - field. lra.
Qed.

Theorem zipf_Hcum_integral_ne1 : forall s y, s <> 1 -> 1 < y ->
  is_RInt (fun z => Rpower z (- s)) 1 y (zipf_Hcum_ne1 s y - 1).
Proof.
  intros s y Hs Hy. assert (E := zipf_t_is_Hcum_ne1 y s Hs ltac:(lra)).
  destruct (Rle_dec y 1); [lra|]. rewrite <- E. apply zipf_hat_mass_ne1; lra.
Qed.

Theorem zipf_inv_cdf_low : forall s pt, pt <= 1 ->
  zipf_inv_ne1 s pt = pt /\ zipf_inv_eq1 pt = pt /\
  zipf_Hcum_ne1 s pt = pt /\ zipf_Hcum_eq1 pt = pt.
Proof.
  intros s pt H. unfold zipf_inv_ne1, zipf_inv_eq1, zipf_Hcum_ne1, zipf_Hcum_eq1.
  destruct (Rle_dec pt 1); [|lra]. repeat split.
Qed.

(* w |-> w^(1/c) increases when c > 0 and decreases when c < 0 *)
Lemma Rpower_inv_exp_lt : forall c a b, 0 < a -> 0 < b -> 0 < (b - a) * c ->
  Rpower a (1 / c) < Rpower b (1 / c).
Proof.
  intros c a b Ha Hb H. destruct (Rlt_le_dec 0 c) as [Hc|Hc].
  - apply Rlt_Rpower_l; [apply Rdiv_lt_0_compat; lra|nra].
  - assert (c < 0) by nra. replace (1 / c) with (- (1 / - c)) by (field; lra).
    apply Rpower_neg_lt; [apply Rdiv_lt_0_compat; lra|nra].
Qed.

Lemma Rpower_inv_exp_le : forall c a b, 0 < a -> 0 < b -> c <> 0 -> 0 <= (b - a) * c ->
  Rpower a (1 / c) <= Rpower b (1 / c).
Proof.
  intros c a b Ha Hb Hc H. destruct (Req_dec a b) as [->|Hab]; [lra|].
  left. apply Rpower_inv_exp_lt; try assumption.
  destruct H as [H|H]; [exact H|]. symmetry in H. apply Rmult_integral in H. lra.
Qed.

Lemma zipf_base_le : forall n s pt, s <> 1 -> pt <= zipf_t_ne1 n s ->
  0 <= (Rpower n (1 - s) - (pt * (1 - s) + s)) * (1 - s).
Proof.
  intros n s pt Hs Hpt. unfold zipf_t_ne1 in Hpt. set (P := Rpower n (1 - s)) in *.
  replace ((P - (pt * (1 - s) + s)) * (1 - s))
    with ((1 - s) ^ 2 * ((P - s) * (1 / (1 - s)) - pt)) by (field; lra).
  apply Rmult_le_pos; [apply pow2_ge_0|lra].
Qed.

(* the positivity hypothesis holds for every pt <= t (zipf_inv_base_pos below) *)
Theorem zipf_inv_cdf_ne1 : forall s pt, s <> 1 -> 1 < pt -> 0 < pt * (1 - s) + s ->
  1 < zipf_inv_ne1 s pt /\ zipf_Hcum_ne1 s (zipf_inv_ne1 s pt) = pt.
Proof.
  intros s pt Hs Hpt Hbase. unfold zipf_inv_ne1. destruct (Rle_dec pt 1); [lra|].
  set (B := pt * (1 - s) + s) in *.
  assert (Hy : 1 < Rpower B (1 / (1 - s))).
  { rewrite <- (Rpower_1_base (1 / (1 - s))) at 1. apply Rpower_inv_exp_lt; [lra|exact Hbase|].
    assert (Hq := Rsqr_pos_lt (1 - s) ltac:(lra)). unfold Rsqr in Hq. unfold B. nra. }
  split; [exact Hy|]. unfold zipf_Hcum_ne1.
  destruct (Rle_dec (Rpower B (1 / (1 - s))) 1); [lra|].
  rewrite Rpower_mult. replace (1 / (1 - s) * (1 - s)) with 1 by (field; lra).
  rewrite Rpower_1 by exact Hbase. unfold B. field. lra.
Qed.

Theorem zipf_inv_base_pos : forall n s pt, s <> 1 -> 0 <= s -> 1 <= n ->
  1 < pt <= zipf_t_ne1 n s -> 0 < pt * (1 - s) + s.
Proof.
  intros n s pt Hs Hs0 Hn Hpt. assert (H := zipf_base_le n s pt Hs (proj2 Hpt)).
  assert (HP := Rpower_pos n (1 - s)). destruct (Rlt_le_dec s 1); nra.
Qed.

(* and inv_cdf(pt) stays within [0, n] for pt <= t *)
Theorem zipf_inv_le_n_ne1 : forall n s pt, s <> 1 -> 0 <= s -> 1 <= n ->
  1 < pt <= zipf_t_ne1 n s -> zipf_inv_ne1 s pt <= n.
Proof.
  intros n s pt Hs Hs0 Hn Hpt. assert (Hbase := zipf_inv_base_pos n s pt Hs Hs0 Hn Hpt).
  unfold zipf_inv_ne1. destruct (Rle_dec pt 1); [lra|].
  assert (Hn1 : Rpower (Rpower n (1 - s)) (1 / (1 - s)) = n).
  { rewrite Rpower_mult. replace ((1 - s) * (1 / (1 - s))) with 1 by (field; lra).
    apply Rpower_1. lra. }
  rewrite <- Hn1.
  apply Rpower_inv_exp_le; [exact Hbase|apply Rpower_pos|lra|].
  apply zipf_base_le; [exact Hs|apply Hpt].
Qed.

Theorem zipf_inv_cdf_eq1 : forall pt, 1 < pt ->
  1 < zipf_inv_eq1 pt /\ zipf_Hcum_eq1 (zipf_inv_eq1 pt) = pt.
Proof.
  intros pt Hpt. unfold zipf_inv_eq1. destruct (Rle_dec pt 1); [lra|].
  assert (Hy : 1 < exp (pt - 1)).
  { assert (H := exp_increasing 0 (pt - 1) ltac:(lra)). rewrite exp_0 in H. exact H. }
  split; [exact Hy|]. unfold zipf_Hcum_eq1. destruct (Rle_dec (exp (pt - 1)) 1); [lra|].
  rewrite ln_exp. ring.
Qed.

Theorem zipf_inv_le_n_eq1 : forall n pt, 1 <= n -> 1 < pt <= zipf_t_eq1 n -> zipf_inv_eq1 pt <= n.
Proof.
  intros n pt Hn Hpt. unfold zipf_inv_eq1, zipf_t_eq1 in *. destruct (Rle_dec pt 1); [lra|].
  rewrite <- (exp_ln n) by lra.
  destruct (Req_dec (pt - 1) (ln n)) as [->|Hne]; [lra|]. left. apply exp_increasing. lra.
Qed.

(* x = floor(y + 1) = k  iff  k - 1 <= y < k *)
Theorem zipf_accept_identity : forall s (k : nat) y, (1 <= k)%nat -> INR k - 1 <= y < INR k ->
  zipf_hat s y * zipf_ratio s (INR k) y = Rpower (INR k) (- s).
Proof.
  intros s k y Hk Hy. unfold zipf_hat, zipf_ratio. destruct (Rlt_dec 1 (INR k)) as [H1|H1].
  - assert (H2 : 2 <= INR k) by (apply (le_INR 2), INR_lt, H1).
    destruct (Rle_dec y 1).
    + replace y with 1 by lra. rewrite Rpower_1_base. ring.
    + rewrite !Rpower_Ropp. field. split; apply Rgt_not_eq, Rpower_pos.
  - destruct (Rle_dec y 1); [ring|lra].
Qed.

Theorem zipf_ratio_range : forall s (k : nat) y, 0 <= s -> (1 <= k)%nat -> INR k - 1 <= y < INR k ->
  0 < zipf_ratio s (INR k) y <= 1.
Proof.
  intros s k y Hs Hk Hy. unfold zipf_ratio. apply le_INR in Hk. simpl in Hk.
  destruct (Rlt_dec 1 (INR k)) as [H1|H1].
  - assert (H2 : 2 <= INR k) by (apply (le_INR 2), INR_lt, H1). rewrite Rpower_Ropp.
    assert (HA := Rpower_pos (INR k) s). assert (HB := Rpower_pos y s).
    assert (HAB : Rpower y s <= Rpower (INR k) s) by (apply Rle_Rpower_l; lra).
    split.
    + apply Rmult_lt_0_compat; [apply Rinv_0_lt_compat|]; assumption.
    + apply Rmult_le_reg_l with (1 := HA). rewrite <- Rmult_assoc, Rinv_r by lra. lra.
  - replace (INR k) with 1 by lra. rewrite Rpower_1_base. lra.
Qed.

(* accepted (unnormalised) mass of the value k: the integral over [k-1, k) of hat * ratio *)
Theorem zipf_accept_mass : forall s (k : nat), (1 <= k)%nat ->
  is_RInt (fun y => zipf_hat s y * zipf_ratio s (INR k) y) (INR k - 1) (INR k) (Rpower (INR k) (- s)).
Proof.
  intros s k Hk.
  apply (is_RInt_ext (fun _ => Rpower (INR k) (- s))).
  - intros y Hy. symmetry. apply zipf_accept_identity; [exact Hk|].
    unfold Rmin, Rmax in Hy. destruct (Rle_dec (INR k - 1) (INR k)); lra.
  - evar_last.
    + apply @is_RInt_const.
    + unfold scal; simpl. unfold mult; simpl. ring.
Qed.

Lemma zipf_defs : forall n s y,
  zipf_hat s y = (if Rle_dec y 1 then 1 else Rpower y (- s)) /\
  zipf_Hcum_ne1 s y = (if Rle_dec y 1 then y else 1 + (Rpower y (1 - s) - 1) / (1 - s)) /\
  zipf_Hcum_eq1 y = (if Rle_dec y 1 then y else 1 + ln y) /\
  zipf_t_ne1 n s = (Rpower n (1 - s) - s) * (1 / (1 - s)) /\
  zipf_t_eq1 n = 1 + ln n /\
  zipf_inv_ne1 s y = (if Rle_dec y 1 then y else Rpower (y * (1 - s) + s) (1 / (1 - s))) /\
  zipf_inv_eq1 y = (if Rle_dec y 1 then y else exp (y - 1)) /\
  forall x, zipf_ratio s x y = if Rlt_dec 1 x then Rpower x (- s) * Rpower y s else Rpower x (- s).
Proof. intros. repeat split. Qed.
