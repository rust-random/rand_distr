(* Proofs/DirichletFl.v — property C11 at the IEEE level (Flocq, any binary format; round to nearest even): the
   stick-breaking loop of DirichletFromBeta::sample_to_slice (dirichlet.rs:163-174)
       acc = 1;  for each beta_i:  out_i = acc * beta_i;  acc = acc * (1 - beta_i);   out_last = acc
   contains no libm call.  For Beta draws that are finite floats in [0, 1] (C03_beta_final_in_unit) every output component
   is a finite float in [0, 1] - no NaN, no overflow, for vectors of any length.                                         *)
From Coq Require Import Reals List Lia.
From Flocq Require Import Core.Core IEEE754.BinarySingleNaN.
From RD Require Import Proofs.AffineFl Proofs.TriangularFl Proofs.BetaFinalFl.
Import ListNotations.
Open Scope R_scope.

Section Fmt.
Variable prec emax : Z.
Context (Hp : Prec_gt_0 prec) (Hpe : Prec_lt_emax prec emax).
Notation float := (binary_float prec emax).
Notation in_unit := (in_unit prec emax).

Fixpoint sticks_fl (acc : float) (betas : list float) : list float :=
  match betas with
  | [] => [acc]
  | b :: r => Bmult mode_NE acc b :: sticks_fl (Bmult mode_NE acc (Bminus mode_NE Bone b)) r
  end.

(* in_unit is bf 0 (TriangularFl), by computation *)
Lemma mult_in_unit (x y : float) : in_unit x -> in_unit y -> in_unit (Bmult mode_NE x y).
Proof. pose proof (emax_gt_1 prec emax Hp Hpe). apply (mult_bf prec emax Hp Hpe x y 0 0); lia. Qed.

Theorem sticks_fl_in_unit (betas : list float) : forall acc, in_unit acc -> Forall in_unit betas ->
  Forall in_unit (sticks_fl acc betas) /\ length (sticks_fl acc betas) = S (length betas).
Proof.
  induction betas as [|b r IH]; intros acc Ha Hb; cbn [sticks_fl length].
  - split; [constructor; [exact Ha|constructor]|reflexivity].
  - apply Forall_cons_iff in Hb. destruct Hb as [Hb Hr].
    destruct (IH (Bmult mode_NE acc (Bminus mode_NE Bone b))) as [I1 I2];
      [apply mult_in_unit; [exact Ha|apply (one_minus_bf prec emax Hp Hpe), Hb]|exact Hr|].
    split; [constructor; [apply mult_in_unit; assumption|exact I1]|rewrite I2; reflexivity].
Qed.

(* the loop as called: acc starts at 1 *)
Corollary dirichlet_sticks_fl (betas : list float) : Forall in_unit betas ->
  Forall in_unit (sticks_fl Bone betas) /\ length (sticks_fl Bone betas) = S (length betas).
Proof. apply sticks_fl_in_unit, bf_one. Qed.
End Fmt.
