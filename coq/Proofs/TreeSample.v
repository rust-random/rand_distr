(* Proofs/TreeSample.v — the descent of try_sample partitions [0,total) into blocks of
   length w_i (left subtree, right subtree, self), its two assertions always hold, and
   rand's Canon range reduction returns a value in range.  Stdlib only; axiom-free. *)
From Coq Require Import ZArith List Lia.
From RD Require Import Model.Tree Model.Uniform Proofs.UniformDraw Proofs.TreeBasics Proofs.TreeOps.
Import ListNotations.
Open Scope Z_scope.

(* the enumeration order of the descent: index j appears w_j times *)
Fixpoint flat (fuel : nat) (w : list Z) (i : nat) : list nat :=
  match fuel with
  | O => []
  | S f => if (i <? length w)%nat
           then flat f w (2*i+1) ++ flat f w (2*i+2) ++ repeat i (Z.to_nat (nthz w i))
           else []
  end.

Lemma flat_length : forall fuel w t, Rep w t -> Nonneg w -> forall i, (length t - i <= fuel)%nat ->
  Z.of_nat (length (flat fuel w i)) = sub t i.
Proof.
  induction fuel as [|f IH]; intros w t R N i Hf; [now rewrite sub_out by lia|].
  pose proof R as [L _]. cbn [flat]. rewrite L.
  destruct (Nat.ltb_spec i (length t)) as [Hi|Hi]; [|now rewrite sub_out by lia].
  rewrite !app_length, repeat_length, !Nat2Z.inj_add, !(IH w t R N) by lia.
  rewrite Z2Nat.id by apply N. rewrite (rep_sub w t R i). lia.
Qed.

Lemma nth_repeat_in (a : nat) m n d : (n < m)%nat -> nth n (repeat a m) d = a.
Proof. intros H. apply (repeat_spec m a). apply nth_In. now rewrite repeat_length. Qed.

Lemma descend_spec : forall fuel w t, Rep w t -> Nonneg w -> forall i target,
  (length t - i <= fuel)%nat -> 0 <= target < sub t i ->
  exists j r, descend fuel t i target = Some (j, r) /\ 0 <= r < nthz w j /\ (j < length t)%nat /\
              nth (Z.to_nat target) (flat fuel w i) 0%nat = j.
Proof.
  induction fuel as [|f IH]; intros w t R N i target Hf Ht; [rewrite sub_out in Ht by lia; lia|].
  destruct (Nat.ltb_spec i (length t)) as [Hi|Hi]; [|rewrite sub_out in Ht by lia; lia].
  pose proof R as [L _]. cbn [descend flat]. rewrite L, (proj2 (Nat.ltb_lt _ _) Hi).
  pose proof (flat_length f w t R N (2*i+1)%nat ltac:(lia)) as FL1.
  pose proof (flat_length f w t R N (2*i+2)%nat ltac:(lia)) as FL2.
  rewrite (rep_sub w t R i) in Ht.
  destruct (Z.ltb_spec target (sub t (2*i+1))) as [H1|H1];
    [|destruct (Z.ltb_spec (target - sub t (2*i+1)) (sub t (2*i+2))) as [H2|H2]].
  - destruct (IH w t R N (2*i+1)%nat target) as [j [r [E [Hr [Hj Hn]]]]]; [lia..|].
    exists j, r. rewrite app_nth1 by lia. auto.
  - destruct (IH w t R N (2*i+2)%nat (target - sub t (2*i+1))) as [j [r [E [Hr [Hj Hn]]]]]; [lia..|].
    exists j, r. rewrite app_nth2, app_nth1 by lia.
    replace (Z.to_nat target - length (flat f w (2*i+1)))%nat with (Z.to_nat (target - sub t (2*i+1))) by lia.
    auto.
  - exists i, (target - sub t (2*i+1) - sub t (2*i+2)).
    rewrite !app_nth2, nth_repeat_in by lia. repeat split; auto; lia.
Qed.

Lemma flat_count : forall fuel w i j, (length w - i <= fuel)%nat -> (j < length w)%nat ->
  count_occ Nat.eq_dec (flat fuel w i) j = if anc (length w) i j then Z.to_nat (nthz w j) else 0%nat.
Proof.
  induction fuel as [|f IH]; intros w i j Hf Hj; [now rewrite anc_gt by lia|].
  cbn [flat]. destruct (Nat.ltb_spec i (length w)) as [Hi|Hi]; [|now rewrite anc_gt by lia].
  rewrite !count_occ_app, !IH by lia.
  generalize (anc_split (length w) j i ltac:(lia)). unfold b2z.
  destruct (Nat.eqb_spec i j) as [->|Hne];
    [rewrite count_occ_repeat_eq by reflexivity|rewrite count_occ_repeat_neq by auto];
    destruct (anc (length w) _ j), (anc (length w) _ j), (anc (length w) _ j); lia.
Qed.

Theorem try_sample_ok ty t target : wf_ty ty -> Inv ty t -> 0 <= target < sub t 0 ->
  exists i, tree_try_sample ty t target = Ok i /\ (i < length t)%nat /\ 0 < nthz (abs t) i /\
            i = nth (Z.to_nat target) (flat (length t) (abs t) 0) 0%nat.
Proof.
  intros WF [w [R [N HS]]] Ht. rewrite (rep_abs w t R).
  destruct (descend_spec (length t) w t R N 0%nat target ltac:(lia) Ht) as [j [res [E [Hres [Hj Hn]]]]].
  unfold tree_try_sample. destruct t as [|r tr]; [inversion Hj|]. change (sub (r :: tr) 0) with r in Ht.
  destruct (Z.eqb_spec r 0); [lia|]. rewrite E, (rep_get w _ j R).
  destruct (Z.leb_spec 0 res), (Z.ltb_spec res (nthz w j)); try lia. exists j. repeat split; auto; lia.
Qed.

Theorem try_sample_zero ty t target : sub t 0 = 0 -> tree_try_sample ty t target = Err InsufficientNonZero.
Proof. unfold tree_try_sample. destruct t as [|r tr]; auto. unfold sub, nthz. simpl. intros ->. reflexivity. Qed.

(* exact proportionality: among the total many targets exactly w_j select j *)
Definition picks (ty : wty) (t : list Z) (j : nat) (k : nat) : bool :=
  match tree_try_sample ty t (Z.of_nat k) with Ok i => (i =? j)%nat | _ => false end.

Lemma filter_count_nth (l : list nat) (j : nat) :
  length (filter (fun k => (nth k l 0%nat =? j)%nat) (seq 0 (length l))) = count_occ Nat.eq_dec l j.
Proof.
  induction l as [|a r IH] using rev_ind; [reflexivity|].
  rewrite app_length. simpl length. rewrite Nat.add_1_r, seq_S, filter_app, app_length. simpl seq. cbn [filter].
  rewrite count_occ_app. simpl count_occ.
  rewrite (filter_ext_in _ (fun k => (nth k r 0%nat =? j)%nat)).
  2:{ intros k Hk. apply in_seq in Hk. rewrite app_nth1 by lia. reflexivity. }
  rewrite IH. rewrite app_nth2 by lia. rewrite Nat.sub_diag. simpl nth.
  destruct (Nat.eqb_spec a j), (Nat.eq_dec a j); try contradiction; simpl; lia.
Qed.

Theorem try_sample_proportional ty t j : wf_ty ty -> Inv ty t -> (j < length t)%nat ->
  Z.of_nat (length (filter (picks ty t j) (seq 0 (Z.to_nat (sub t 0))))) = nthz (abs t) j.
Proof.
  intros WF I Hj. pose proof I as [w [R [N HS]]].
  pose proof (flat_length (length t) w t R N 0%nat ltac:(lia)) as FL.
  rewrite (filter_ext_in _ (fun k => (nth k (flat (length t) w 0) 0%nat =? j)%nat)).
  2:{ intros k Hk. apply in_seq in Hk. unfold picks.
      destruct (try_sample_ok ty t (Z.of_nat k) WF I ltac:(lia)) as [i [E [_ [_ Hi]]]].
      rewrite E, Hi, (rep_abs w t R), Nat2Z.id. reflexivity. }
  replace (Z.to_nat (sub t 0)) with (length (flat (length t) w 0)) by lia.
  rewrite filter_count_nth. pose proof R as [L _]. rewrite <- L at 1.
  rewrite flat_count, anc_root by lia. rewrite (rep_abs w t R).
  apply Z2Nat.id. apply N.
Qed.

(* rand's Canon range reduction stays in range *)
Theorem canon_in_range b range ws v rest : Forall (fun x => 0 <= x < 2^64) ws ->
  0 < range < sbits_pow b -> canon b range ws = Some (v, rest) -> 0 <= v < range.
Proof.
  intros F Hr E. unfold canon in E. set (M := sbits_pow b) in *.
  destruct (draw b ws) as [[w1 r1]|] eqn:D1; [|discriminate].
  destruct (draw_range b ws w1 r1 F D1) as [W1 _]. fold M in W1.
  assert (Hhi : 0 <= w1 * range / M < range)
    by (split; [apply Z.div_pos; nia|apply Z.div_lt_upper_bound; nia]).
  rewrite (Z.mod_small (M - range) M) in E by lia.
  destruct (Z.ltb_spec (M - range) ((w1 * range) mod M)) as [Hb|Hb]; [|inversion E; subst; lia].
  destruct (draw b r1) as [[w2 r2]|]; [|discriminate]. injection E as <- _.
  (* lo > M - range rules out hi = range - 1, so the carry fits *)
  pose proof (Z.div_mod (w1 * range) M ltac:(lia)) as DM.
  assert (w1 * range / M <> range - 1) by nia.
  destruct (_ <=? _); lia.
Qed.
