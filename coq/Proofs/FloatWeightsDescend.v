(* Proofs/FloatWeightsDescend.v — the descent loop of the float WeightedTreeIndex::try_sample
   (Model/FloatWeights.v) never runs out of fuel and never leaves the vector: for every non-empty
   state and every target that is not strictly negative (in particular every target drawn by
   random_range(0.0..total)), the loop stops at an in-range index with a residual that is not
   strictly negative.  Hence the model's `Panic` outcome of try_sample on a valid tree is exactly
   a failure of one of the two `assert!`s (tree_float_panic_iff).                              *)
From Coq Require Import ZArith List Bool Lia Reals Lra.
From Flocq Require Import Core.Core IEEE754.BinarySingleNaN.
From RD Require Import Model.Tree Model.FloatWeights.
From RD Require Import Proofs.FloatWeightsProofs Proofs.FloatWeightsOps.
Import ListNotations.

Section Fmt.
Variable prec emax : Z.
Context (Hp : Prec_gt_0 prec) (Hpe : Prec_lt_emax prec emax).
Notation float := (BinarySingleNaN.binary_float prec emax).
Notation fzero := (fzero prec emax).
Notation fone := (fone prec emax Hp Hpe).
Notation fge := (fge prec emax).
Notation flt := (flt prec emax).
Notation fadd := (fadd prec emax Hp Hpe).
Notation fsub := (fsub prec emax Hp Hpe).
Notation fmul := (fmul prec emax Hp Hpe).
Notation fsubt := (fsubt prec emax).
Notation fdescend := (fdescend prec emax Hp Hpe).

Local Instance fexp_valid' : Valid_exp (SpecFloat.fexp prec emax) := fexp_correct prec emax Hp.

(* "not strictly negative": NaN, +-0, +inf or a positive finite number *)
Definition nn (x : float) : Prop := flt x fzero = false.

Lemma fsub_pos_nn : forall m e B (l : float), is_finite l = true ->
  flt (B754_finite false m e B) l = false -> nn (fsub (B754_finite false m e B) l).
Proof.
  intros m e B l Fl Hl. rewrite flt_finite in Hl by (reflexivity || exact Fl).
  destruct (Rlt_bool_spec (B2R (B754_finite false m e B : float)) (B2R l)) as [|D]; [discriminate|].
  eapply rounded_ge; [apply fsub_rounded; (reflexivity || exact Fl) | reflexivity|].
  simpl (B2R fzero). lra.
Qed.

(* `target -= subtotal` after the guard `!(target < subtotal)` keeps the target non-negative *)
Lemma fsub_keeps_nn : forall x l : float, nn x -> flt x l = false -> nn (fsub x l).
Proof.
  intros x l Hx Hl.
  destruct x as [sx|sx| |sx mx ex Bx]; destruct l as [sl|sl| |sl ml el Bl];
    try destruct sx; try destruct sl; try discriminate; try reflexivity;
    apply fsub_pos_nn; auto.
Qed.

Lemma fsubt_out : forall (t : list float) i, (length t <= i)%nat -> fsubt t i = fzero.
Proof. intros t i H. unfold FloatWeights.fsubt. apply Nat.ltb_ge in H. rewrite H. reflexivity. Qed.

(* descending into a child means the child is inside the vector *)
Lemma flt_child_in : forall (t : list float) x i, nn x -> flt x (fsubt t i) = true -> (i < length t)%nat.
Proof.
  intros t x i Hx H. destruct (Nat.lt_ge_cases i (length t)) as [L|L]; auto.
  rewrite (fsubt_out t i L) in H. unfold nn in Hx. rewrite Hx in H. discriminate.
Qed.

Lemma fdescend_total : forall (t : list float) fuel i target,
  (i < length t)%nat -> (length t + 1 <= fuel + i)%nat -> nn target ->
  exists j resid, fdescend fuel t i target = Some (j, resid) /\ (j < length t)%nat /\ nn resid.
Proof.
  intros t. induction fuel; intros i target Hi Hf Hn; [lia|].
  cbn [FloatWeights.fdescend].
  destruct (flt target (fsubt t (2 * i + 1))) eqn:E1.
  { pose proof (flt_child_in t target _ Hn E1). apply IHfuel; auto; lia. }
  pose proof (fsub_keeps_nn _ _ Hn E1) as Hn1.
  destruct (flt (fsub target (fsubt t (2 * i + 1))) (fsubt t (2 * i + 2))) eqn:E2.
  { pose proof (flt_child_in t _ _ Hn1 E2). apply IHfuel; auto; lia. }
  pose proof (fsub_keeps_nn _ _ Hn1 E2) as Hn2.
  eexists; eexists; split; [reflexivity|]. auto.
Qed.

(* try_sample on a non-empty state and a not-strictly-negative target: Panic iff one of the two
   assertions fails; the first one can only fail because the residual is NaN *)
Theorem tree_float_panic_iff : forall (t : list float) target, t <> [] -> nn target ->
  exists i resid,
    fdescend (S (length t)) t 0 target = Some (i, resid) /\ (i < length t)%nat /\ nn resid /\
    (ftree_sample_target prec emax Hp Hpe t target = Ok i <->
       (is_nan resid = false /\ flt resid (ftree_get prec emax Hp Hpe t i) = true)) /\
    (ftree_sample_target prec emax Hp Hpe t target = Panic <->
       (is_nan resid = true \/ flt resid (ftree_get prec emax Hp Hpe t i) = false)) /\
    (forall e, ftree_sample_target prec emax Hp Hpe t target <> Err e).
Proof.
  intros t target Ht Hn.
  assert (L : (0 < length t)%nat) by (destruct t; [congruence | simpl; lia]).
  destruct (fdescend_total t (S (length t)) 0 target L ltac:(lia) Hn) as [i [resid [E [Hi Hr]]]].
  exists i, resid. split; auto. split; auto. split; auto.
  unfold ftree_sample_target. rewrite E. unfold ftree_get_chk.
  apply Nat.ltb_lt in Hi. rewrite Hi.
  assert (G : fge resid fzero = negb (is_nan resid)).
  { rewrite fge_zero_spec. unfold fbad_w. unfold nn in Hr. rewrite flt_zero_spec in Hr.
    rewrite Hr, orb_false_r. reflexivity. }
  rewrite G, negb_involutive.
  destruct (is_nan resid), (flt resid _); intuition congruence.
Qed.

Lemma fadd_zero_nn : forall x : float, nn x -> nn (fadd x fzero).
Proof. intros [s|s| |s m e B]; try destruct s; intros H; try discriminate; reflexivity. Qed.

Lemma fmul_pos_nn : forall (v : float) m e B, nn v -> nn (fmul v (B754_finite false m e B)).
Proof.
  intros v m e B Hv.
  destruct v as [s|s| |s mv ev Bv]; try destruct s; try discriminate; try reflexivity.
  eapply rounded_ge; [apply fmul_rounded; reflexivity | reflexivity|].
  simpl (B2R fzero). apply Rmult_le_pos; apply Rlt_le, B2R_pos_finite.
Qed.

(* the mantissa 2^(prec-1) + fraction, scaled by 2^-(prec-1), is at least 1 *)
Lemma value1_2_ge_one : forall w, (0 <= w)%Z ->
  nn (value1_2 prec emax Hp Hpe w) /\ flt (value1_2 prec emax Hp Hpe w) fone = false.
Proof.
  intros w Hw. unfold value1_2.
  set (mz := (2 ^ (prec - 1) + frac_of_word prec w)%Z).
  assert (Hfr : (0 <= frac_of_word prec w)%Z).
  { unfold frac_of_word. apply Z_div_nonneg_nonneg; auto. apply Z.pow_nonneg; lia. }
  assert (Hp1 : (0 <= prec - 1)%Z) by (unfold Prec_gt_0 in Hp; lia).
  assert (X1 : (1 <= F2R (Float radix2 mz (- (prec - 1))))%R).
  { replace 1%R with (F2R (Float radix2 (2 ^ (prec - 1)) (- (prec - 1)))).
    - apply F2R_le. unfold mz. lia.
    - unfold F2R. simpl Fnum. simpl Fexp. rewrite (IZR_Zpower radix2) by exact Hp1.
      rewrite <- bpow_plus. replace (prec - 1 + - (prec - 1))%Z with 0%Z by lia. reflexivity. }
  pose proof (fdy_rounded (Hp := Hp) (Hpe := Hpe) mz (- (prec - 1))) as R.
  rewrite Rlt_bool_false in R by lra.
  destruct (one_facts (Hp := Hp) (Hpe := Hpe)) as [F1 E1].
  split; [apply (rounded_ge fzero _ _ R eq_refl); simpl; lra|].
  apply (rounded_ge fone _ _ R F1). rewrite E1. exact X1.
Qed.

Theorem random_range_target_nn : forall (total : float) w target, (0 <= w)%Z ->
  random_range prec emax Hp Hpe fzero total w = Some target -> nn target.
Proof.
  intros total w target Hw H. unfold random_range in H.
  destruct total as [s|[|]| |[|] m e B]; try discriminate H.
  change (Some (fadd (fmul (value0_1 prec emax Hp Hpe w) (B754_finite false m e B)) fzero)
          = Some target) in H.
  injection H as <-. apply fadd_zero_nn, fmul_pos_nn.
  unfold value0_1. apply fsub_keeps_nn; apply value1_2_ge_one, Hw.
Qed.

(* try_sample from an RNG word on a valid tree: one word is consumed, the result is never an
   error, the loop ends inside the vector; a panic is either +inf total (random_range rejects
   a non-finite bound) or a failing assertion *)
Theorem tree_float_sample_word_valid : forall (t : list float) w, (0 <= w)%Z ->
  ftree_is_valid prec emax t = true ->
  (is_finite (ftree_total prec emax t) = false /\
     ftree_try_sample_word prec emax Hp Hpe t w = (Panic, 0%Z)) \/
  (exists target i resid,
     ftree_target_of_word prec emax Hp Hpe t w = Some target /\
     fdescend (S (length t)) t 0 target = Some (i, resid) /\ (i < length t)%nat /\
     ((is_nan resid = false /\ flt resid (ftree_get prec emax Hp Hpe t i) = true /\
         ftree_try_sample_word prec emax Hp Hpe t w = (Ok i, 1%Z)) \/
      ((is_nan resid = true \/ flt resid (ftree_get prec emax Hp Hpe t i) = false) /\
         ftree_try_sample_word prec emax Hp Hpe t w = (Panic, 1%Z)))).
Proof.
  intros t w Hw V.
  destruct t as [|r t']; [discriminate|]. simpl in V.
  unfold ftree_try_sample_word, ftree_target_of_word. cbn [ftree_total].
  rewrite (fgt_not_feq _ _ _ _ V).
  destruct (random_range prec emax Hp Hpe fzero r w) as [target|] eqn:ER.
  - right. pose proof (random_range_target_nn r w target Hw ER) as Hn.
    destruct (tree_float_panic_iff (r :: t') target ltac:(discriminate) Hn)
      as [i [resid [E [Hi [Hr [A [B _]]]]]]].
    exists target, i, resid. repeat split; auto.
    destruct A as [_ A], B as [_ B].
    destruct (is_nan resid); [right; rewrite B; auto|].
    destruct (flt resid _); [left; rewrite A; auto | right; rewrite B; auto].
  - left. split; auto.
    unfold random_range, sample_single_inclusive in ER.
    rewrite fgt_flt in V. rewrite V in ER. simpl negb in ER. cbv iota in ER.
    destruct r as [s|s| |s m e B]; try destruct s; try discriminate; try reflexivity.
Qed.

End Fmt.
