(* Proofs/GuardProofs4.v — C04, part 4: Binomial (u64 n, float p; the f64_to_u64 assertion is
   unreachable), Dirichlet (list of parameters; nested Gamma::new / Beta::new never fail).      *)
From Coq Require Import ZArith List Bool String Reals Lra Lia.
From Flocq Require Import Core.Core IEEE754.Binary IEEE754.Bits IEEE754.BinarySingleNaN.
From RD Require Import Model.Guards Model.GuardSpec Proofs.GuardLemmas Proofs.AffineFl Proofs.GuardArith.
Import ListNotations.
Open Scope R_scope.

Section Fmt.
Variable prec emax : Z.
Context (Hp : Prec_gt_0 prec) (Hpe : Prec_lt_emax prec emax).
Notation float := (binary_float prec emax).
Notation one := (one prec emax Hp Hpe).
Notation zero := (zero prec emax).
Notation half := (half prec emax Hp Hpe).
Notation ten := (ten prec emax Hp Hpe).
Notation of_Z := (of_Z prec emax Hp Hpe).
Notation fmul := (fmul prec emax Hp Hpe).
Notation fadd := (fadd prec emax Hp Hpe).
Notation fsub := (fsub prec emax Hp Hpe).
Notation fgt := (fgt prec emax).
Notation flt := (flt prec emax).
Notation fge := (fge prec emax).
Notation fle := (fle prec emax).
Notation feq := (feq prec emax).
Notation M := (M emax).
Notation rnd := (rnd prec emax).

Section Binomial.
Hypothesis half_fin : is_finite half = true.
Hypothesis half_val : B2R half = / 2.
Hypothesis umax_fin : is_finite (of_Z u64_max) = true.
Hypothesis umax_val : B2R (of_Z u64_max) = 18446744073709551616.      (* u64::MAX as f64 = 2^64 *)
Hypothesis r63 : rnd 9223372036854775808 = 9223372036854775808.          (* 2^63 is a float *)
Hypothesis r15 : rnd 13835058055282163712 = 13835058055282163712.        (* 3*2^62 is a float *)

Lemma r64 : rnd 18446744073709551616 = 18446744073709551616.
Proof. rewrite <- umax_val. now apply rnd_B2R. Qed.
Lemma M_gt_2p64 : 18446744073709551616 < M.
Proof. rewrite <- umax_val. apply (finite_bound _ _ _ umax_fin). Qed.

Lemma ofZ_range (n : Z) : (0 <= n <= u64_max)%Z ->
  is_finite (of_Z n) = true /\ 0 <= B2R (of_Z n) <= 18446744073709551616.
Proof.
  intros (L & U). pose proof M_gt_2p64 as HM.
  assert (V : F2R (Float radix2 n 0) = IZR n) by (unfold F2R; simpl; ring).
  assert (B : 0 <= rnd (IZR n) <= 18446744073709551616).
  { split. apply rnd_nonneg; trivial. now apply IZR_le.
    rewrite <- r64. apply rnd_mono; trivial.
    apply Rle_trans with (IZR u64_max). now apply IZR_le. unfold u64_max. lra. }
  destruct (cdy_small prec emax Hp Hpe n 0) as (F & E).
  - rewrite V. apply Rabs_lt. lra.
  - unfold Guards.of_Z. rewrite E, V. auto.
Qed.

Definition Binomial_rest (n : Z) (p : float) : bool :=
  let p' := if fgt p half then fsub one p else p in
  let np := fmul (of_Z n) p' in
  flt np ten || (fge (fadd np p') zero && flt (fadd np p') (of_Z u64_max)).

Lemma Binomial_new_eq (n : Z) (p : float) :
  Binomial_new prec emax Hp Hpe n p =
  if negb (fge p zero) then GErr "ProbabilityTooSmall" else
  if negb (fle p one) then GErr "ProbabilityTooLarge" else
  if feq p zero || feq p one || Binomial_rest n p then GOk else GPanic.
Proof.
  unfold Binomial_new, Binomial_rest.
  destruct (fge p zero); [|reflexivity]. destruct (fle p one); [|reflexivity].
  destruct (feq p zero); [reflexivity|]. destruct (feq p one); [reflexivity|].
  now destruct (flt _ ten).
Qed.

(* the assertion inside f64_to_u64 cannot fail *)
Lemma Binomial_rest_true (n : Z) (p : float) :
  (0 <= n <= u64_max)%Z -> is_finite p = true -> 0 <= B2R p <= 1 -> Binomial_rest n p = true.
Proof.
  intros Hn Fp Bp. pose proof M_gt_2p64 as HM. unfold Binomial_rest.
  pose proof (rnd_zero prec emax) as R0. pose proof (one_B2R prec emax Hp Hpe) as V1.
  (* p' in [0, 1/2] *)
  set (p' := if fgt p half then fsub one p else p).
  assert (P' : is_finite p' = true /\ 0 <= B2R p' <= / 2).
  { unfold p'. destruct (fgt p half) eqn:G.
    - apply fgt_finite in G; trivial.
      destruct (fin_between prec emax Hp Hpe _ _ 0 (/ 2) (Bminus_ext prec emax Hp Hpe one p (one_fin _ _ _ _) Fp) R0)
        as (F & _ & B); try lra; auto.
      rewrite <- half_val. apply rnd_B2R.
    - split; trivial. split. lra.
      destruct (Rle_or_lt (B2R p) (/ 2)); trivial.
      rewrite <- half_val in H. apply fgt_finite in H; trivial. congruence. }
  destruct P' as (Fp' & Bp'). clearbody p'.
  destruct (ofZ_range n Hn) as (FN & BN).
  (* np in [0, 2^63] *)
  set (np := fmul (of_Z n) p').
  destruct (fin_between prec emax Hp Hpe np _ 0 9223372036854775808 (Bmult_ext prec emax Hp Hpe (of_Z n) p' FN Fp') R0 r63)
    as (Fnp & _ & Bnp); [lra|lra|nra|].
  destruct (flt np ten); simpl; trivial.
  (* f_m = np + p' in [0, 3*2^62] *)
  set (fm := fadd np p').
  destruct (fin_between prec emax Hp Hpe fm _ 0 13835058055282163712 (Bplus_ext prec emax Hp Hpe np p' Fnp Fp') R0 r15)
    as (Ffm & _ & Bfm); [lra..|].
  apply andb_true_intro; split.
  - apply fge_finite; trivial. simpl. lra.
  - apply (proj2 (flt_finite prec emax fm (of_Z u64_max) Ffm umax_fin)). rewrite umax_val. lra.
Qed.

Theorem Binomial_new_sound (n : Z) (p : float) :
  (0 <= n <= u64_max)%Z ->
  agrees (Binomial_new prec emax Hp Hpe n p) (spec_Binomial_new prec emax Hp Hpe n p).
Proof.
  intros Hn. rewrite Binomial_new_eq. unfold spec_Binomial_new.
  pose proof (not_v_le _ _ zero p) as T1. rewrite <- fge_le in T1.
  pose proof (not_v_le _ _ p one) as T2. rewrite <- fle_le, (v_nan_one prec emax Hp Hpe) in T2.
  rewrite T1, T2.
  destruct (v_lt _ _ p zero); [apply agrees_err; reflexivity|].
  destruct (v_nan _ _ p); [apply agrees_err; reflexivity|].
  destruct (v_lt _ _ one p); [apply agrees_err; reflexivity|].
  apply negb_false_iff in T1, T2.
  (* 0 <= p <= 1: a finite p, on which the assertion holds *)
  destruct (fge_fin_cases _ _ p zero eq_refl T1) as [(Fp & L) | ->].
  2: { destruct (one_struct prec emax Hp Hpe) as (m & e & H & E). rewrite E in T2. discriminate T2. }
  rewrite Binomial_rest_true, !orb_true_r; trivial; [now apply agrees_ok|split; trivial].
  rewrite <- (one_B2R prec emax Hp Hpe). apply fle_finite; trivial. apply one_fin.
Qed.
End Binomial.

Section Dirichlet.
Notation min_normal := (min_normal prec emax Hp Hpe).

Lemma min_normal_ok : is_finite min_normal = true /\ B2R min_normal = bpow radix2 (2 - emax).
Proof.
  assert (V : F2R (Float radix2 1 (2 - emax)) = bpow radix2 (2 - emax)) by (unfold F2R; simpl; ring).
  assert (R : rnd (bpow radix2 (2 - emax)) = bpow radix2 (2 - emax)).
  { apply (rnd_bpow prec emax Hp). unfold Prec_gt_0 in Hp. lia. }
  destruct (cdy_small prec emax Hp Hpe 1 (2 - emax)) as (F & E).
  - rewrite V, R. rewrite Rabs_pos_eq by apply bpow_ge_0. unfold GuardSpec.M. apply bpow_lt.
    unfold Prec_gt_0, Prec_lt_emax in *. lia.
  - unfold GuardSpec.min_normal. rewrite E, V, R. auto.
Qed.

Lemma normal_iff (m : positive) (e : Z) (H : SpecFloat.bounded prec emax m e = true) :
  negb (f_is_normal prec emax (B754_finite false m e H)) =
  v_subnormal prec emax Hp Hpe (B754_finite false m e H).
Proof.
  destruct min_normal_ok as (Fmn & Vmn).
  unfold v_subnormal, v_fin, v_eq, v_lt, Guards.fabs, f_is_normal.
  replace (Beqb (B754_finite false m e H) zero) with false by reflexivity.
  cbn [is_finite Babs negb andb]. rewrite Bltb_correct, Vmn by trivial.
  (* canonical: e = max (digits m + e - prec) (3 - emax - prec), with 2^(d-1) <= m < 2^d *)
  pose proof H as Hc. apply andb_prop in Hc as (Hc & _). apply Zeq_bool_eq in Hc.
  unfold SpecFloat.fexp, SpecFloat.emin in Hc.
  pose proof (Zdigits_correct radix2 (Z.pos m)) as D. rewrite <- Zpos_digits2_pos in D.
  set (d := Z.pos (SpecFloat.digits2_pos m)) in *. cbn [Z.abs] in D.
  assert (Pd : (0 < d)%Z) by (unfold d; lia).
  cbn [B2R cond_Zopp]. unfold F2R; cbn [Fnum Fexp]. unfold Prec_gt_0 in Hp. symmetry.
  destruct (Z.eqb_spec d prec) as [E|E]; cbn [negb].
  - apply Rlt_bool_false.
    apply Rle_trans with (bpow radix2 (prec - 1) * bpow radix2 e).
    + rewrite <- bpow_plus. apply bpow_le. lia.
    + apply Rmult_le_compat_r. apply bpow_ge_0.
      rewrite <- (IZR_Zpower radix2) by lia. apply IZR_le. rewrite <- E. apply D.
  - apply Rlt_bool_true.
    apply Rlt_le_trans with (bpow radix2 d * bpow radix2 e).
    + apply Rmult_lt_compat_r. apply bpow_gt_0.
      rewrite <- (IZR_Zpower radix2) by lia. apply IZR_lt. apply D.
    + rewrite <- bpow_plus. apply bpow_le. lia.
Qed.

(* the model's per-element tests are the documented ones *)
Lemma Dirichlet_check_spec (alpha : list float) :
  Dirichlet_check prec emax alpha = Dirichlet_first_offence prec emax Hp Hpe alpha.
Proof.
  induction alpha as [|a rest IH]; simpl; trivial.
  rewrite <- not_fgt_zero. destruct (fgt a zero) eqn:G; simpl; trivial.
  destruct (fgt_zero_inv prec emax a G) as [-> | (m & e & H & ->)]; simpl; trivial.
  rewrite <- (normal_iff m e H). unfold f_is_normal. simpl. rewrite IH. reflexivity.
Qed.

Definition posfin (a : float) : Prop := is_finite a = true /\ 0 < B2R a.
Definition spos (a : float) : Prop := fgt a zero = true.

Lemma Dirichlet_check_None (alpha : list float) :
  Dirichlet_check prec emax alpha = None -> Forall posfin alpha.
Proof.
  induction alpha as [|a rest IH]; simpl; intros E; constructor.
  - destruct (fgt a zero) eqn:G; simpl in E; try discriminate.
    destruct (fgt_zero_inv prec emax a G) as [-> | (m & e & H & ->)]; simpl in E; try discriminate.
    split. reflexivity. apply finite_pos_B2R.
  - apply IH. destruct (negb (fgt a zero)); try discriminate.
    destruct (f_is_infinite prec emax a); try discriminate.
    destruct (negb (f_is_normal prec emax a)); try discriminate. trivial.
Qed.

Lemma posfin_spos (a : float) : posfin a -> spos a.
Proof.
  intros (F & P). destruct (finite_pos_struct _ _ a F P) as (m & e & H & ->). reflexivity.
Qed.

Lemma spos_add (acc x : float) : spos acc -> posfin x -> spos (fadd acc x).
Proof.
  intros S (F & P). unfold spos in *.
  destruct (fgt_zero_inv prec emax acc S) as [-> | (m & e & H & ->)].
  - destruct (finite_pos_struct _ _ x F P) as (m & e & H & ->). reflexivity.
  - destruct (Bplus_ext prec emax Hp Hpe (B754_finite false m e H) x eq_refl F) as (N & E).
    apply (fgt_zero_ext prec emax Hp Hpe); trivial. rewrite E.
    apply (clamp_pos prec emax Hp Hpe).
    pose proof (finite_pos_B2R prec emax m e H).
    assert (B2R x <= rnd (B2R (B754_finite false m e H : float) + B2R x)) by (apply rnd_ge_B2R; trivial; lra).
    lra.
Qed.

Lemma rev_csum_spos (l : list float) : Forall posfin l -> Forall spos (rev_csum prec emax Hp Hpe l).
Proof.
  induction l as [|x rest IH]; intros Hl. constructor.
  inversion Hl as [|? ? Hx Hr]; subst.
  specialize (IH Hr). simpl.
  destruct rest as [|y r]. constructor; trivial. now apply posfin_spos.
  destruct (rev_csum prec emax Hp Hpe (y :: r)) as [|acc r'] eqn:E.
  - constructor; trivial. now apply posfin_spos.
  - constructor. { inversion IH; subst. now apply spos_add. } exact IH.
Qed.

Lemma all_ok_GOk (l : list gres) (e : string) : Forall (fun r => r = GOk) l -> all_ok l e = GOk.
Proof. induction 1 as [|r l Hr Hl IH]; simpl; trivial. now rewrite Hr. Qed.

Lemma In_removelast (A : Type) (l : list A) (x : A) : In x (removelast l) -> In x l.
Proof.
  induction l as [|a l IH]; simpl; trivial.
  destruct l as [|b l]; simpl in *; tauto.
Qed.

Lemma Beta_new_spos (a b : float) : spos a -> spos b -> Beta_new prec emax a b = GOk.
Proof. unfold spos, Beta_new. now intros -> ->. Qed.

Lemma DirichletFromBeta_ok (alpha : list float) :
  Forall posfin alpha -> DirichletFromBeta_new prec emax Hp Hpe alpha = GOk.
Proof.
  intros Ha. unfold DirichletFromBeta_new. apply all_ok_GOk.
  apply Forall_forall. intros r Hr. apply in_map_iff in Hr. destruct Hr as ((a & b) & <- & Hab).
  simpl. apply Beta_new_spos.
  - apply posfin_spos. apply in_combine_l in Hab. apply In_removelast in Hab.
    revert a Hab. now apply Forall_forall.
  - apply in_combine_r in Hab. revert b Hab. apply Forall_forall. apply rev_csum_spos.
    destruct alpha; simpl; trivial. now inversion Ha.
Qed.

Lemma DirichletFromGamma_ok (alpha : list float) :
  Forall posfin alpha -> DirichletFromGamma_new prec emax Hp Hpe alpha = GOk.
Proof.
  intros Ha. unfold DirichletFromGamma_new. apply all_ok_GOk.
  apply Forall_forall. intros r Hr. apply in_map_iff in Hr. destruct Hr as (a & <- & Hin).
  rewrite Gamma_new_eq, (fgt_one_zero prec emax Hp Hpe).
  assert (S : spos a) by (apply posfin_spos; revert a Hin; now apply Forall_forall).
  unfold spos in S. now rewrite S.
Qed.

(* FailedToCreateGamma / FailedToCreateBeta / a panic are unreachable; errors are the documented ones *)
Theorem Dirichlet_new_sound (alpha : list float) :
  agrees (Dirichlet_new prec emax Hp Hpe alpha) (spec_Dirichlet_new prec emax Hp Hpe alpha).
Proof.
  unfold Dirichlet_new, spec_Dirichlet_new.
  destruct (_ <? _)%nat. simpl; auto.
  rewrite <- Dirichlet_check_spec.
  destruct (Dirichlet_check prec emax alpha) eqn:E. simpl; auto.
  apply Dirichlet_check_None in E.
  destruct (forallb _ alpha).
  - now rewrite DirichletFromBeta_ok.
  - now rewrite DirichletFromGamma_ok.
Qed.
End Dirichlet.

End Fmt.
