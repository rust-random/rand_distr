(* Proofs/MultiDirichlet.v — property C11 (Dirichlet): the reversed cumulative sums of
   DirichletFromBeta::new, the parameters of the chain of Beta samplers, the simplex property of the
   stick-breaking construction and of the Gamma normalisation (on ideal reals AND on the results of
   the models of Model/Multi.v), and the method switch.                                              *)
From Coq Require Import Reals List Lra Lia.
From Interval Require Import Xreal.
From Flocq Require Import Core.
From RD Require Import Base.Expr Base.Run Model.Sampler Model.Continuous Model.Multi.
From RD Require Import Proofs.LawsInvCdf Proofs.Support Proofs.MultiProofs.
Import ListNotations.
Open Scope Z_scope.
Open Scope sampler_scope.

Import ExprNotations.

Local Open Scope R_scope.

Definition sumf (l : list R) : R := fold_right Rplus 0 l.
Lemma sumf_cons a l : sumf (a :: l) = a + sumf l.
Proof. reflexivity. Qed.
Lemma sumf_nil : sumf [] = 0.
Proof. reflexivity. Qed.

Lemma suffix_sums_R_cons a r : suffix_sums_R (a :: r) = (sumf r + a) :: suffix_sums_R r.
Proof.
  revert a. induction r as [|b r IH]; intros a; cbn [suffix_sums_R] in *; [f_equal; rewrite sumf_nil; ring|].
  rewrite IH. f_equal. rewrite sumf_cons. ring.
Qed.
Lemma suffix_sums_R_length l : length (suffix_sums_R l) = length l.
Proof.
  induction l as [|a r IH]; [reflexivity|]. cbn [suffix_sums_R].
  destruct (suffix_sums_R r) as [|c q]; cbn [length] in *; rewrite <- IH; reflexivity.
Qed.
Lemma suffix_sums_length l : length (suffix_sums l) = length l.
Proof.
  induction l as [|a r IH]; [reflexivity|]. cbn [suffix_sums].
  destruct (suffix_sums r) as [|c q]; cbn [length] in *; rewrite <- IH; reflexivity.
Qed.

Lemma suffix_sums_R_spec l : forall i, (i < length l)%nat -> nth i (suffix_sums_R l) 0 = sumf (skipn i l).
Proof.
  induction l as [|a r IH]; intros i Hi; [cbn in Hi; lia|].
  rewrite suffix_sums_R_cons. destruct i as [|j]; cbn [nth skipn].
  - rewrite sumf_cons. ring.
  - apply IH. cbn in Hi. lia.
Qed.

Theorem rev_csum_length alpha : length (rev_csum_R alpha) = (length alpha - 1)%nat.
Proof. unfold rev_csum_R. rewrite suffix_sums_R_length. destruct alpha; cbn; lia. Qed.
Theorem rev_csum_length_e alpha : length (rev_csum alpha) = (length alpha - 1)%nat.
Proof. unfold rev_csum. rewrite suffix_sums_length. destruct alpha; cbn; lia. Qed.

(* entry i of alpha_rev_csum is the sum of the entries of alpha of index > i *)
Theorem rev_csum_spec alpha i : (2 <= length alpha)%nat -> (i < length alpha - 1)%nat ->
  nth i (rev_csum_R alpha) 0 = sumf (skipn (S i) alpha).
Proof.
  intros _ Hi. unfold rev_csum_R. destruct alpha as [|a0 r]; [cbn in Hi; lia|].
  cbn [tl skipn]. apply suffix_sums_R_spec. cbn in Hi. lia.
Qed.

(* the expression-level list (float additions) denotes the real-level one: same recursion *)
Lemma suffix_sums_vals l rs : vals l rs -> vals (suffix_sums l) (suffix_sums_R rs).
Proof.
  induction 1 as [|e r l rs He H IH]; [constructor|].
  cbn [suffix_sums suffix_sums_R].
  destruct IH as [|c cr q qr Hc Hq].
  - constructor; [exact He|constructor].
  - constructor; [|constructor; assumption].
    cbn [evalX xbin]. rewrite Hc, He. reflexivity.
Qed.
Theorem rev_csum_vals alpha rs : vals alpha rs -> vals (rev_csum alpha) (rev_csum_R rs).
Proof. intros H. unfold rev_csum, rev_csum_R. apply suffix_sums_vals. destruct H; [constructor|exact H0]. Qed.

Lemma combine_nth_lt {A B} (l : list A) (l' : list B) d d' : forall i, (i < length l)%nat -> (i < length l')%nat ->
  nth i (combine l l') (d, d') = (nth i l d, nth i l' d').
Proof.
  revert l'. induction l as [|a l IH]; intros [|b l'] i H1 H2; cbn in H1, H2; try lia.
  destruct i; [reflexivity|]. cbn. apply IH; lia.
Qed.

Theorem beta_chain_params t (alpha : list (Z * Z)) :
  let al := map dyx alpha in
  dirichlet_beta t alpha = dir_sticks t (beta_params al) one /\
  length (beta_params al) = (length alpha - 1)%nat /\
  (forall i, (i < length alpha - 1)%nat ->
     nth i (beta_params al) (one, one) = (dyx (nth i alpha (1, 0)%Z), nth i (rev_csum al) one)) /\
  (forall p r acc, dir_sticks t (p :: r) acc =
     (bs <- beta_of t p ;; l <- dir_sticks t r (acc *. (one -. bs)) ;; sret ((acc *. bs) :: l))%sampler) /\
  (forall acc, dir_sticks t [] acc = sret [acc]).
Proof.
  intros al. split; [reflexivity|]. split; [|split; [|split; reflexivity]].
  - unfold beta_params. rewrite combine_length, rev_csum_length_e. unfold al. rewrite map_length. lia.
  - intros i Hi. unfold beta_params. rewrite combine_nth_lt.
    + f_equal. unfold al. change one with (dyx (1, 0)%Z) at 1. apply map_nth.
    + unfold al. rewrite map_length. lia.
    + rewrite rev_csum_length_e. unfold al. rewrite map_length. lia.
Qed.

Fixpoint sticks (bs : list R) (acc : R) : list R :=
  match bs with
  | [] => [acc]
  | b :: r => acc * b :: sticks r (acc * (1 - b))
  end.

Lemma sticks_sum bs : forall acc, sumf (sticks bs acc) = acc.
Proof.
  induction bs as [|b r IH]; intros acc; cbn [sticks].
  - rewrite sumf_cons, sumf_nil. ring.
  - rewrite sumf_cons, IH. ring.
Qed.
Lemma sticks_range bs : Forall (fun b => 0 <= b <= 1) bs -> forall acc, 0 <= acc <= 1 ->
  Forall (fun s => 0 <= s <= 1) (sticks bs acc).
Proof.
  induction 1 as [|b r Hb H IH]; intros acc Ha; cbn [sticks].
  - constructor; [exact Ha|constructor].
  - constructor; [nra|]. apply IH. nra.
Qed.
Lemma sticks_length bs acc : length (sticks bs acc) = S (length bs).
Proof. revert acc. induction bs as [|b r IH]; intros acc; cbn; [reflexivity|]. now rewrite IH. Qed.

(* for ANY b_1..b_{n-1} of [0,1] the n outputs are in [0,1]; they sum to exactly 1 (for any reals b_i at all) *)
Theorem stick_simplex bs : Forall (fun b => 0 <= b <= 1) bs ->
  length (sticks bs 1) = S (length bs) /\ Forall (fun s => 0 <= s <= 1) (sticks bs 1) /\ sumf (sticks bs 1) = 1.
Proof. intros H. split; [apply sticks_length|]. split; [apply sticks_range; [exact H|lra]|apply sticks_sum]. Qed.

Definition normalise (gs : list R) : list R := map (fun g => g * (1 / sumf gs)) gs.

Lemma sumf_map_scale c l : sumf (map (fun g => g * c) l) = sumf l * c.
Proof. induction l as [|a l IH]; cbn [map]; [rewrite sumf_nil; ring|]. rewrite !sumf_cons, IH. ring. Qed.
Lemma sumf_pos_ge l : Forall (fun g => 0 < g) l -> 0 <= sumf l /\ forall g, In g l -> g <= sumf l.
Proof.
  induction 1 as [|a l Ha H [IH1 IH2]]; [split; [rewrite sumf_nil; lra|intros g []]|].
  rewrite sumf_cons. split; [lra|]. intros g [->|Hg]; [lra|]. specialize (IH2 g Hg). lra.
Qed.
Lemma sumf_pos l : Forall (fun g => 0 < g) l -> l <> [] -> 0 < sumf l.
Proof.
  intros H N. destruct H as [|a l Ha H]; [contradiction|]. rewrite sumf_cons.
  destruct (sumf_pos_ge l H) as [P _]. lra.
Qed.

Theorem gamma_simplex gs : Forall (fun g => 0 < g) gs -> gs <> [] ->
  length (normalise gs) = length gs /\ Forall (fun x => 0 < x <= 1) (normalise gs) /\ sumf (normalise gs) = 1.
Proof.
  intros H N. pose proof (sumf_pos gs H N) as P. destruct (sumf_pos_ge gs H) as [_ U]. unfold normalise.
  split; [apply map_length|]. split; [|rewrite sumf_map_scale; field; lra].
  rewrite Forall_map. rewrite Forall_forall in * . intros g Hg. unfold Rdiv. rewrite Rmult_1_l.
  split; [apply div_gt_0|apply div_le_1]; auto.
Qed.

Definition dyv (q : Z * Z) : R := IZR (fst q) * powerRZ 2 (snd q).

Lemma dy_leb_dyv a b : dy_leb a b = true <-> dyv a <= dyv b.
Proof.
  unfold dy_leb. rewrite dy_cmp_spec. change dyR with dyv.
  destruct (Rcompare_spec (dyv a) (dyv b)); split; intros; try lra; try reflexivity; discriminate.
Qed.

(* the model takes the Beta route iff every alpha_i is <= the threshold (0.1_f64 converted to F), as real numbers *)
Theorem method_switch t alpha :
  (dir_use_beta t alpha = true <-> Forall (fun a => dyv a <= dyv (dir_threshold t)) alpha) /\
  (dir_use_beta t alpha = true -> dirichlet t alpha = dirichlet_beta t alpha) /\
  (dir_use_beta t alpha = false -> dirichlet t alpha = dirichlet_gamma t alpha).
Proof.
  split; [|split; intros H; unfold dirichlet; rewrite H; reflexivity].
  unfold dir_use_beta. rewrite forallb_forall, Forall_forall.
  split; intros H a Ha; apply dy_leb_dyv; auto.
Qed.

(* the two thresholds: 0.1_f64 and the f32 nearest to it; 1/10 lies strictly between *)
Lemma dir_threshold_values :
  dyv (dir_threshold F64) = 3602879701896397 / 36028797018963968 /\
  dyv (dir_threshold F32) = 13421773 / 134217728 /\
  1 / 10 < dyv (dir_threshold F64) < dyv (dir_threshold F32).
Proof.
  unfold dyv, dir_threshold. cbn [fst snd].
  pose proof (powerRZ_2_neg 55 ltac:(lia)) as A. pose proof (powerRZ_2_neg 27 ltac:(lia)) as B.
  cbn [Z.opp] in A, B. rewrite A, B.
  change (IZR (2 ^ 55)) with 36028797018963968. change (IZR (2 ^ 27)) with 134217728.
  split; [reflexivity|]. split; [reflexivity|]. lra.
Qed.

(* every result of a Beta sampler of the chain has one of the two forms w/(b+w), b/(b+w) *)
Lemma beta_of_leaves t a b ws : allsem (fun p => unit_form a b (fst p)) (beta_of t (a, b) ws).
Proof. unfold beta_of. cbn [sbind sask bind allsem]. intros x y _ _ x' y' _ _. apply beta_e_leaves. Qed.

Lemma stick_split acc bs x A' : evalX (acc *. bs) = Xreal x -> evalX (acc *. (one -. bs)) = Xreal A' ->
  exists A B, evalX acc = Xreal A /\ evalX bs = Xreal B /\ x = A * B /\ A' = A * (1 - B).
Proof.
  intros H1 H2. apply mul_real in H1. destruct H1 as (A & B & EA & EB & ->). exists A, B.
  cbn [evalX xbin] in H2. rewrite EA, EB, one_eval in H2. injection H2 as <-. auto.
Qed.

(* FromBeta.  Whenever all components denote reals, so does acc, and they sum to its value; if moreover that
   value is in [0,1] and the parameters of the Beta samplers are positive, every component is in [0,1] *)
Definition sticks_of (ab : list (expr * expr)) (acc : expr) (p : list expr * list Z) : Prop :=
  length (fst p) = S (length ab) /\
  forall rs, vals (fst p) rs -> exists A, evalX acc = Xreal A /\ sumf rs = A /\
    (Forall (fun q => pos (fst q) /\ pos (snd q)) ab -> 0 <= A <= 1 -> Forall (fun r => 0 <= r <= 1) rs).

Lemma dir_sticks_sem t ab : forall acc ws, allsem (sticks_of ab acc) (dir_sticks t ab acc ws).
Proof.
  induction ab as [|[a b] r IH]; intros acc ws.
  - cbn. split; [reflexivity|]. intros rs H. inversion H as [|e x l l' He Hl]; subst. inversion Hl; subst.
    exists x. split; [exact He|]. split; [rewrite sumf_cons, sumf_nil; ring|]. intros _ Hx. constructor; [exact Hx|constructor].
  - cbn [dir_sticks]. eapply allsem_sbind; [apply beta_of_leaves|]. cbn [fst]. intros bs ws1 Hu.
    eapply allsem_sbind; [apply IH|]. intros l ws2 [Hlen Hl]. cbn [sret allsem].
    split; cbn [fst length] in * ; [now rewrite Hlen|]. intros rs H. inversion H as [|e x l0 rs' He Hrest]; subst.
    destruct (Hl _ Hrest) as (A' & EA' & Hsum & Hrange).
    destruct (stick_split _ _ _ _ He EA') as (A & B & EA & EB & -> & ->).
    exists A. split; [exact EA|]. split; [rewrite sumf_cons, Hsum; ring|].
    intros Hpos HA. inversion Hpos as [|q r' [Pa Pb] Hr]; subst. cbn [fst snd] in Pa, Pb.
    pose proof (unit_form_range a b bs B Pa Pb Hu EB) as HB.
    constructor; [nra|]. apply Hrange; [exact Hr|nra].
Qed.

Theorem dirichlet_beta_simplex t alpha ws out rest : evals (dirichlet_beta t alpha ws) (out, rest) ->
  length out = S (length alpha - 1) /\ forall rs, vals out rs -> sumf rs = 1.
Proof.
  intros E. destruct (allsem_elim _ _ _ (dir_sticks_sem t _ one ws) E) as [L S]. cbn [fst] in L, S.
  split; [rewrite L; f_equal; apply (beta_chain_params t)|].
  intros rs H. destruct (S rs H) as (A & EA & Hs & _). rewrite one_eval in EA. injection EA as <-. exact Hs.
Qed.

(* FromGamma.  The accumulated sum is syntactically the left fold of the samples *)
Lemma dir_gammas_sem t alpha : forall sum ws,
  allsem (fun p => length (fst (fst p)) = length alpha /\ snd (fst p) = fold_left (Bin Add) (fst (fst p)) sum)
         (dir_gammas t alpha sum ws).
Proof.
  induction alpha as [|a r IH]; intros sum ws; [cbn; auto|].
  cbn [dir_gammas]. unfold sbind at 1. apply allsem_bind_any. intros [s ws1].
  eapply allsem_sbind; [apply IH|]. intros [l tot] ws2 [Hlen Htot]. cbn [sret allsem fst snd length fold_left] in * .
  split; [now rewrite Hlen|exact Htot].
Qed.

Lemma fold_add_real l : forall s x, evalX (fold_left (Bin Add) l s) = Xreal x ->
  exists s0, evalX s = Xreal s0 /\ forall rs, vals l rs -> x = s0 + sumf rs.
Proof.
  induction l as [|e l IH]; intros s x H; cbn [fold_left] in H.
  - exists x. split; [exact H|]. intros rs Hr. inversion Hr. rewrite sumf_nil. ring.
  - destruct (IH _ _ H) as (s1 & E1 & Hs). apply add_real in E1. destruct E1 as (s0 & e0 & Es & Ee & ->).
    exists s0. split; [exact Es|]. intros rs Hr. inversion Hr as [|e' r l' rs' He Hrest]; subst.
    rewrite He in Ee. injection Ee as <-. rewrite (Hs _ Hrest), sumf_cons. ring.
Qed.

(* each component real => its sample and the total are real, the total is not 0 *)
Lemma normalise_vals l tot : forall os, vals (dir_normalise l tot) os ->
  exists rs, vals l rs /\
    (l = [] \/ exists T, evalX tot = Xreal T /\ T <> 0 /\ os = map (fun g => g * (1 / T)) rs).
Proof.
  unfold dir_normalise. induction l as [|e l IH]; intros os Ho; [exists []; split; [constructor|left; reflexivity]|].
  cbn [map] in Ho. inversion Ho as [|e' o l' os' Heo Hrest]; subst.
  destruct (IH _ Hrest) as (rs & Hrs & D).
  apply mul_real in Heo. destruct Heo as (r & iv & Er & Eiv & ->).
  apply div_real in Eiv. destruct Eiv as (o1 & T & Eo & ET & NZ & ->).
  rewrite one_eval in Eo. injection Eo as <-.
  exists (r :: rs). split; [constructor; assumption|right]. exists T. split; [exact ET|]. split; [exact NZ|].
  cbn [map]. f_equal. destruct D as [->|(T' & ET' & _ & ->)].
  - inversion Hrs. inversion Hrest. reflexivity.
  - rewrite ET in ET'. injection ET' as <-. reflexivity.
Qed.

Theorem dirichlet_gamma_simplex t alpha ws out rest : alpha <> [] -> evals (dirichlet_gamma t alpha ws) (out, rest) ->
  length out = length alpha /\ forall os, vals out os -> sumf os = 1.
Proof.
  intros NE. apply (allsem_elim (fun p => length (fst p) = length alpha /\ forall os, vals (fst p) os -> sumf os = 1) _ (out, rest)).
  unfold dirichlet_gamma. eapply allsem_sbind; [apply dir_gammas_sem|].
  intros [l tot] ws2 [Hlen Htot]. cbn [sret allsem fst snd] in * .
  split; [unfold dir_normalise; now rewrite map_length|].
  intros os Ho. destruct (normalise_vals _ _ _ Ho) as (rs & Hrs & [->|(T & ET & NZ & ->)]).
  - destruct alpha; [contradiction|discriminate Hlen].
  - rewrite Htot in ET. destruct (fold_add_real _ _ _ ET) as (s0 & Es0 & Hs).
    rewrite num_eval in Es0. injection Es0 as <-.
    rewrite (Hs _ Hrs) in NZ |- * . rewrite sumf_map_scale. field. lra.
Qed.

Theorem dirichlet_simplex t alpha ws out rest : (2 <= length alpha)%nat -> evals (dirichlet t alpha ws) (out, rest) ->
  length out = length alpha /\ forall os, vals out os -> sumf os = 1.
Proof.
  intros L E. unfold dirichlet in E. destruct (dir_use_beta t alpha).
  - destruct (dirichlet_beta_simplex _ _ _ _ _ E) as [H1 H2]. split; [lia|exact H2].
  - apply (dirichlet_gamma_simplex t alpha ws out rest); [destruct alpha; [cbn in L; lia|discriminate]|exact E].
Qed.
