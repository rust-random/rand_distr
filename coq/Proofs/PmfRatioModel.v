(* Proofs/PmfRatioModel.v — the step-5.1 / step-4.1 expressions of the executable sampler models
   (Model/Discrete.v: btpe_f51, h2pe_f41 — the very terms the pathwise correspondence runs against
   the crate) evaluate, in exact real arithmetic, to the pmf ratio pmf(y)/pmf(m).
   This links Proofs/PmfRatio.v (loops over R) to the model terms. *)
From Coq Require Import Reals Lra Lia List.
From Interval Require Import Xreal.
From RD Require Import Base.Expr Base.Run Model.Continuous Model.Discrete Proofs.LawsInvCdf Proofs.PmfBinomial
  Proofs.PmfRatio Proofs.LoopBounds.
Open Scope R_scope.

Lemma zf_eval k : evalX (zf k) = Xreal (IZR k).
Proof. unfold zf. destruct (Z.abs k <=? 2 ^ 53)%Z; [apply num_eval|]. unfold rnd. cbn [evalX xun]. apply num_eval. Qed.

Lemma INR_Z (j : nat) : IZR (Z.of_nat j) = INR j.
Proof. symmetry. apply INR_IZR_INZ. Qed.

(* the models compare in Z what the loops over R compare in nat *)
Lemma of_nat_ltb (m y : nat) : (Z.of_nat m <? Z.of_nat y)%Z = (m <? y)%nat.
Proof. destruct (Nat.ltb_spec m y); [apply Z.ltb_lt|apply Z.ltb_ge]; lia. Qed.

(* a running product that starts at the exact 1.0 (None) *)
Definition optval (f : option expr) (rf : R) : Prop :=
  match f with None => rf = 1 | Some f0 => evalX f0 = Xreal rf end.
Lemma oget_optval f rf : optval f rf -> evalX (oget f) = Xreal rf.
Proof. destruct f; unfold optval, oget; [auto|]. intros ->. apply one_eval. Qed.

Lemma btpe_g_eval a s ra rs (j : nat) : (0 < j)%nat ->
  evalX a = Xreal ra -> evalX s = Xreal rs ->
  evalX (Bin Sub (Bin Div a (zf (Z.of_nat j))) s) = Xreal (ra / INR j - rs).
Proof.
  intros Hj Ha Hs. cbn [evalX xbin]. rewrite Ha, Hs, zf_eval, INR_Z.
  rewrite Xdiv_nz by (apply not_0_INR; lia). reflexivity.
Qed.

Lemma btpe_up_eval cnt : forall a s ra rs (i : nat) f rf,
  evalX a = Xreal ra -> evalX s = Xreal rs -> optval f rf ->
  evalX (btpe_up cnt a s (Z.of_nat i) f) = Xreal (loop_mul (fun j => ra / INR j - rs) i cnt rf).
Proof.
  induction cnt as [|c IH]; intros a s ra rs i f rf Ha Hs Hf; [exact (oget_optval f rf Hf)|].
  cbn [btpe_up loop_mul]. replace (Z.of_nat i + 1)%Z with (Z.of_nat (S i)) by lia.
  apply IH; [exact Ha|exact Hs|].
  pose proof (btpe_g_eval a s ra rs (S i) ltac:(lia) Ha Hs) as G.
  destruct f as [f0|]; cbn [optval] in Hf |- * .
  - cbn [evalX xbin] in G |- * . rewrite Hf, G. reflexivity.
  - subst rf. rewrite G, Rmult_1_l. reflexivity.
Qed.

Lemma btpe_down_eval cnt : forall a s ra rs (i : nat) f rf,
  evalX a = Xreal ra -> evalX s = Xreal rs -> evalX f = Xreal rf ->
  (forall j, (i < j <= i + cnt)%nat -> ra / INR j - rs <> 0) ->
  evalX (btpe_down cnt a s (Z.of_nat i) f) = Xreal (loop_div (fun j => ra / INR j - rs) i cnt rf).
Proof.
  induction cnt as [|c IH]; intros a s ra rs i f rf Ha Hs Hf Hnz; [exact Hf|].
  cbn [btpe_down loop_div]. replace (Z.of_nat i + 1)%Z with (Z.of_nat (S i)) by lia.
  apply IH; [exact Ha|exact Hs| |intros j Hj; apply Hnz; lia].
  pose proof (btpe_g_eval a s ra rs (S i) ltac:(lia) Ha Hs) as G.
  cbn [evalX xbin] in G |- * . rewrite Hf, G. apply Xdiv_nz, Hnz. lia.
Qed.

(* the factor a/j - s is pmf(j)/pmf(j-1), hence non-zero on 1..n *)
Lemma btpe_factor_nz (n : nat) (p : R) (j : nat) : 0 < p < 1 -> (0 < j <= n)%nat ->
  (p / (1 - p)) * (INR n + 1) / INR j - p / (1 - p) <> 0.
Proof.
  intros Hp Hj Z.
  pose proof (binom_pmf_step n p Hp (j - 1) ltac:(lia)) as S1.
  replace (S (j - 1)) with j in S1 by lia.
  apply (binom_pmf_nz n p Hp j ltac:(lia)). rewrite S1, Z. ring.
Qed.

(* Model/Discrete.btpe_f51 — the term `f` compared with v in step 5.1 — is pmf(y)/pmf(m) *)
Theorem btpe_f51_exact_ratio : forall (n m y : nat) (pe : expr) (p : R),
  evalX pe = Xreal p -> 0 < p < 1 -> (m <= n)%nat -> (y <= n)%nat ->
  evalX (btpe_f51 (Z.of_nat n) pe (Z.of_nat m) (Z.of_nat y))
  = Xreal ((C n y * p ^ y * (1 - p) ^ (n - y)) / (C n m * p ^ m * (1 - p) ^ (n - m))).
Proof.
  intros n m y pe p Hpe Hp Hm Hy.
  pose proof (btpe_exact_ratio n p m y Hp Hm Hy) as E. cbv zeta in E. rewrite <- E. clear E.
  unfold btpe_f51, btpe_f.
  set (s := Bin Div pe (Bin Sub one pe)).
  set (a := Bin Mul s (Bin Add (zf (Z.of_nat n)) one)).
  assert (Hs : evalX s = Xreal (p / (1 - p))).
  { unfold s. cbn [evalX xbin]. rewrite Hpe, one_eval. cbn [Xsub]. apply Xdiv_nz. lra. }
  assert (Ha : evalX a = Xreal (p / (1 - p) * (INR n + 1))).
  { unfold a. cbn [evalX xbin]. rewrite Hs, zf_eval, one_eval, INR_Z. reflexivity. }
  rewrite !of_nat_ltb, !Nat.ltb_compare, (Nat.compare_antisym m y).
  destruct (Nat.compare_spec m y) as [Eq|L|G]; cbn [CompOpp].
  - apply one_eval.
  - replace (Z.to_nat (Z.of_nat y - Z.of_nat m)) with (y - m)%nat by lia.
    apply btpe_up_eval; [exact Ha|exact Hs|reflexivity].
  - replace (Z.to_nat (Z.of_nat m - Z.of_nat y)) with (m - y)%nat by lia.
    apply btpe_down_eval; [exact Ha|exact Hs|apply one_eval|].
    intros j Hj. apply btpe_factor_nz; [exact Hp|lia].
Qed.

Lemma h2pe_num_eval (n1 k j : nat) : (j <= n1)%nat -> (j <= k)%nat ->
  evalX (Bin Mul (zf (Z.of_nat n1 - Z.of_nat j + 1)) (zf (Z.of_nat k - Z.of_nat j + 1)))
  = Xreal (h2pe_num n1 k j).
Proof.
  intros H1 H2. cbn [evalX xbin]. rewrite !zf_eval. unfold h2pe_num.
  replace (Z.of_nat n1 - Z.of_nat j + 1)%Z with (Z.of_nat (n1 - j + 1)) by lia.
  replace (Z.of_nat k - Z.of_nat j + 1)%Z with (Z.of_nat (k - j + 1)) by lia.
  rewrite !INR_Z. reflexivity.
Qed.
Lemma h2pe_den_eval (n2 k j : nat) : (k <= n2)%nat ->
  evalX (Bin Mul (zf (Z.of_nat j)) (zf (Z.of_nat n2 - Z.of_nat k + Z.of_nat j)))
  = Xreal (h2pe_den n2 k j).
Proof.
  intros H. cbn [evalX xbin]. rewrite !zf_eval. unfold h2pe_den.
  replace (Z.of_nat n2 - Z.of_nat k + Z.of_nat j)%Z with (Z.of_nat (n2 - k + j)) by lia.
  rewrite !INR_Z. reflexivity.
Qed.
Lemma h2pe_num_nz (n1 k j : nat) : (j <= n1)%nat -> (j <= k)%nat -> h2pe_num n1 k j <> 0.
Proof.
  intros H1 H2. unfold h2pe_num. apply Rmult_integral_contrapositive_currified; apply not_0_INR; lia.
Qed.

(* both loops of step 4.1 update f by `f *= a; f /= b` *)
Lemma fdiv_fmul_optval f rf a b ra rb : optval f rf -> evalX a = Xreal ra -> evalX b = Xreal rb -> rb <> 0 ->
  optval (fdiv (fmul f a) b) (rf * ra / rb).
Proof.
  intros Hf Ea Eb Hb. destruct f as [f0|]; cbn [fdiv fmul optval evalX xbin] in Hf |- * .
  - rewrite Hf, Ea, Eb. apply Xdiv_nz, Hb.
  - subst rf. rewrite Ea, Eb, Rmult_1_l. apply Xdiv_nz, Hb.
Qed.
Lemma step_up_optval n1 n2 k (j : nat) f rf : (k <= n2)%nat -> (0 < j <= n1)%nat -> (j <= k)%nat -> optval f rf ->
  optval (h2pe_step_up (Z.of_nat n1) (Z.of_nat n2) (Z.of_nat k) f (Z.of_nat j)) (rf * h2pe_num n1 k j / h2pe_den n2 k j).
Proof.
  intros Hk Hj Hjk Hf. apply fdiv_fmul_optval; [exact Hf|apply h2pe_num_eval; lia|apply h2pe_den_eval, Hk|].
  destruct j; [lia|apply h2pe_den_nz].
Qed.
Lemma step_down_optval n1 n2 k (j : nat) f rf : (k <= n2)%nat -> (0 < j <= n1)%nat -> (j <= k)%nat -> optval f rf ->
  optval (h2pe_step_down (Z.of_nat n1) (Z.of_nat n2) (Z.of_nat k) f (Z.of_nat j)) (rf * h2pe_den n2 k j / h2pe_num n1 k j).
Proof.
  intros Hk Hj Hjk Hf. apply fdiv_fmul_optval; [exact Hf|apply h2pe_den_eval, Hk|apply h2pe_num_eval; lia|].
  apply h2pe_num_nz; lia.
Qed.

Lemma fold_idx_optval (step : option expr -> Z -> option expr) (num den : nat -> R) cnt : forall (i : nat) f rf,
  (forall (j : nat) g rg, (i < j <= i + cnt)%nat -> optval g rg -> optval (step g (Z.of_nat j)) (rg * num j / den j)) ->
  optval f rf -> optval (fold_left step (idx (Z.of_nat i) cnt) f) (loop_muldiv num den i cnt rf).
Proof.
  induction cnt as [|c IH]; intros i f rf Hs Hf; [exact Hf|].
  rewrite idx_S. cbn [fold_left loop_muldiv]. replace (Z.of_nat i + 1)%Z with (Z.of_nat (S i)) by lia.
  apply IH; [intros j g rg Hj; apply Hs; lia|apply Hs; [lia|exact Hf]].
Qed.

(* Model/Discrete.h2pe_f41 — the sampler fragment computing `f` of step 4.1 — reads no word, cannot
   panic inside the support, and returns an expression whose exact value is pmf(y)/pmf(m) *)
Theorem h2pe_f41_exact_ratio : forall (n1 n2 k m y : nat) ws,
  (k <= n2)%nat -> (m <= n1)%nat -> (m <= k)%nat -> (y <= n1)%nat -> (y <= k)%nat ->
  exists f, h2pe_f41 (Z.of_nat n1) (Z.of_nat n2) (Z.of_nat k) (Z.of_nat m) (Z.of_nat y) ws = Ret (f, ws) /\
    evalX f = Xreal ((C n1 y * C n2 (k - y)) / (C n1 m * C n2 (k - m))).
Proof.
  intros n1 n2 k m y ws Hk Hm1 Hm2 Hy1 Hy2.
  rewrite <- (h2pe_exact_ratio_weights n1 n2 k m y Hk Hm1 Hm2 Hy1 Hy2).
  unfold h2pe_f41, h2pe_f. rewrite of_nat_ltb. destruct (Nat.ltb_spec m y) as [L|G].
  - replace (Z.to_nat (Z.of_nat y - Z.of_nat m)) with (y - m)%nat by lia.
    rewrite h2pe_up_value by lia. eexists. split; [reflexivity|].
    apply oget_optval, fold_idx_optval; [|reflexivity]. intros j g rg Hj. apply step_up_optval; lia.
  - rewrite Z.max_l by lia.
    replace (Z.to_nat (Z.of_nat m - Z.of_nat y)) with (m - y)%nat by lia.
    rewrite h2pe_down_value by lia. eexists. split; [reflexivity|].
    apply oget_optval, fold_idx_optval; [|reflexivity]. intros j g rg Hj. apply step_down_optval; lia.
Qed.

(* non-vacuity: Binomial(40, 1/2) m = 20, y = 22: f = C(40,22)/C(40,20) *)
Example btpe_f51_example :
  evalX (btpe_f51 40 (Dy 1 (-1)) 20 22) = Xreal (C 40 22 * (/2) ^ 22 * (1 - /2) ^ 18 / (C 40 20 * (/2) ^ 20 * (1 - /2) ^ 20)).
Proof.
  apply (btpe_f51_exact_ratio 40 20 22 (Dy 1 (-1)) (/2)); try lia; try lra.
  cbn [evalX]. rewrite xdy_real. f_equal. simpl. lra.
Qed.
