(* Proofs/LawsTriangular.v — value and law of the triangular sampler model (Model/Continuous.v):
   the one comparison of the model selects the branch of the two-piece quantile function, and that
   quantile function inverts the piecewise-quadratic CDF.                                        *)
From Coq Require Import Reals List Lra.
From Coquelicot Require Rcomplements.
From Interval Require Import Xreal.
From RD Require Import Base.Expr Base.Run Model.Sampler Model.Continuous Proofs.LawsInvCdf.
Import ListNotations.
Open Scope R_scope.

(* sample: with f = u*(max-min):  min + sqrt(f*(mode-min)) if f < mode-min, else
   max - sqrt(((max-min) - f)*(max-mode));  a = min, b = max, c = mode, u in [0,1) *)
Definition Q_tri (a b c u : R) : R :=
  if Rlt_dec (u * (b - a)) (c - a)
  then a + sqrt (u * (b - a) * (c - a))
  else b - sqrt (((b - a) - u * (b - a)) * (b - c)).
(* CDF (Wikipedia): 0 for x <= a, (x-a)^2/((b-a)(c-a)) for a < x <= c,
   1 - (b-x)^2/((b-a)(b-c)) for c < x < b, 1 for b <= x *)
Definition F_tri (a b c x : R) : R :=
  if Rle_dec x a then 0
  else if Rle_dec x c then (x - a) * (x - a) / ((b - a) * (c - a))
  else if Rlt_dec x b then 1 - (b - x) * (b - x) / ((b - a) * (b - c))
  else 1.

(* under the constructor's conditions both radicands are nonnegative (so Coq's total sqrt is the real one) *)
Lemma tri_radicands a b c u :
  a <= b -> a <= c <= b -> 0 <= u < 1 ->
  0 <= u * (b - a) * (c - a) /\ 0 <= ((b - a) - u * (b - a)) * (b - c).
Proof.
  intros Hab Hc Hu. split.
  - apply Rmult_le_pos; [apply Rmult_le_pos|]; lra.
  - apply Rmult_le_pos; [|lra].
    replace (b - a - u * (b - a)) with ((1 - u) * (b - a)) by ring. apply Rmult_le_pos; lra.
Qed.

(* the model evaluates (exact semantics `evals` of Base/Run.v) to an expression whose value is Q_tri,
   and to nothing else: the comparison is decided exactly as in Q_tri.  No hypothesis on the
   parameters is needed for this equation (Xsqrt is total); tri_radicands above is what makes the
   square roots the real ones under the constructor's conditions. *)
Lemma tri_frange_eval t mn mx w :
  evalX (tri_frange t mn mx w) = Xreal (uR_std t w * (dyR mx - dyR mn)).
Proof. unfold tri_frange. cbn [evalX xbin]. rewrite !dyx_eval, u_std_eval. reflexivity. Qed.
Lemma tri_dmm_eval mn mode : evalX (tri_dmm mn mode) = Xreal (dyR mode - dyR mn).
Proof. unfold tri_dmm. cbn [evalX xbin]. rewrite !dyx_eval. reflexivity. Qed.
Lemma tri_lo_eval t mn mx mode w :
  evalX (tri_lo_expr t mn mx mode w) =
  Xreal (dyR mn + sqrt (uR_std t w * (dyR mx - dyR mn) * (dyR mode - dyR mn))).
Proof.
  unfold tri_lo_expr. cbn [evalX xun xbin]. rewrite tri_frange_eval, tri_dmm_eval, dyx_eval. reflexivity.
Qed.
Lemma tri_hi_eval t mn mx mode w :
  evalX (tri_hi_expr t mn mx mode w) =
  Xreal (dyR mx - sqrt ((dyR mx - dyR mn - uR_std t w * (dyR mx - dyR mn)) * (dyR mx - dyR mode))).
Proof.
  unfold tri_hi_expr. cbn [evalX xun xbin]. rewrite tri_frange_eval, !dyx_eval. reflexivity.
Qed.

Theorem triangular_value t mn mx mode w ws :
  (exists e, evals (triangular t mn mx mode (w :: ws)) (e, ws)) /\
  (forall v, evals (triangular t mn mx mode (w :: ws)) v ->
     snd v = ws /\ evalX (fst v) = Xreal (Q_tri (dyR mn) (dyR mx) (dyR mode) (uR_std t w))).
Proof.
  destruct (triangular_run t mn mx mode w ws) as [k [E [Kt Kf]]]. rewrite E.
  pose proof (tri_frange_eval t mn mx w) as Ea. pose proof (tri_dmm_eval mn mode) as Eb.
  split.
  - exists (if rcmp CLt (uR_std t w * (dyR mx - dyR mn)) (dyR mode - dyR mn)
            then tri_lo_expr t mn mx mode w else tri_hi_expr t mn mx mode w).
    eapply EvAsk; [exact Ea|exact Eb|].
    destruct (rcmp CLt _ _); [rewrite Kt|rewrite Kf]; constructor.
  - intros v H. inversion H as [|c0 a0 b0 k0 x y v0 Hx Hy Hk|]; subst.
    rewrite Ea in Hx. rewrite Eb in Hy. injection Hx as <-. injection Hy as <-.
    unfold Q_tri. unfold rcmp in Hk.
    destruct (Rlt_dec (uR_std t w * (dyR mx - dyR mn)) (dyR mode - dyR mn)) as [L|L].
    + rewrite Kt in Hk. inversion Hk; subst. cbn [fst snd]. split; [reflexivity|apply tri_lo_eval].
    + rewrite Kf in Hk. inversion Hk; subst. cbn [fst snd]. split; [reflexivity|apply tri_hi_eval].
Qed.

Lemma sq_le s d : 0 <= s -> 0 <= d -> (s <= d <-> s * s <= d * d).
Proof. intros Hs Hd. split; intros H; nra. Qed.
Lemma sqrt_le_sq s d : 0 <= s -> 0 <= d -> (sqrt s <= d <-> s <= d * d).
Proof. intros Hs Hd. now rewrite (sq_le _ _ (sqrt_pos s) Hd), sqrt_sqrt. Qed.
Lemma sqrt_scale k r r' : 0 < k -> r' = k * k * r -> sqrt r' = k * sqrt r.
Proof. intros Hk ->. rewrite sqrt_mult_alt by nra. now rewrite sqrt_square by lra. Qed.

(* a number s >= 0 with s * s = r * k (k > 0) compares with d >= 0 as r does with d * d / k *)
Lemma quad_piece k r s d : 0 < k -> 0 <= s -> s * s = r * k -> 0 <= d ->
  (s <= d <-> r <= d * d / k) /\ (d <= s <-> d * d / k <= r).
Proof.
  intros Hk Hs E Hd. rewrite <- Rcomplements.Rle_div_r, Rcomplements.Rle_div_l, <- E by exact Hk.
  split; apply sq_le; assumption.
Qed.

(* law: Q_tri is increasing in u and inverts F_tri.  (u = 0 and x < min is the one excluded
   combination: the draw 0 returns min itself, an event of probability 2^-53 / 2^-24.)
   In each branch of Q_tri the square root is a number s >= 0 with s * s = the radicand: on the
   piece of F_tri that the branch inverts the two sides are compared by quad_piece, on the other
   pieces both are decided by where x lies (with equality cases at x = a and x = c). *)
Theorem triangular_event a b c u x :
  a < b -> a <= c <= b -> 0 <= u < 1 -> (0 < u \/ a <= x) ->
  (Q_tri a b c u <= x <-> u <= F_tri a b c x).
Proof.
  intros Hab Hc Hu Hx. destruct (tri_radicands a b c u) as [R1 R2]; try lra.
  assert (U0 : 0 <= u * (b - a)) by (apply Rmult_le_pos; lra).
  assert (U1 : 0 < (1 - u) * (b - a)) by (apply Rmult_lt_0_compat; lra).
  unfold Q_tri, F_tri.
  destruct (Rlt_dec (u * (b - a)) (c - a)) as [L|L].
  - (* lower branch: Q = a + s with s < c - a *)
    pose proof (sqrt_pos (u * (b - a) * (c - a))) as S0. pose proof (sqrt_sqrt _ R1) as S2.
    set (s := sqrt _) in *. clearbody s. clear R1 R2. rewrite Rmult_assoc in S2.
    assert (P : 0 < (b - a) * (c - a)) by (apply Rmult_lt_0_compat; lra).
    assert (S1 : s < c - a) by nra.
    destruct (Rle_dec x a) as [X1|X1]; [|destruct (Rle_dec x c) as [X2|X2]; [|destruct (Rlt_dec x b) as [X3|X3]]].
    + (* both sides say u = 0 *)
      split; intros H; nra.
    + destruct (quad_piece _ u s (x - a) P S0 S2) as [D _]; [lra|]. rewrite <- D. lra.
    + (* Q < c < x, and F x > F c > u *)
      assert (P' : 0 < (b - a) * (b - c)) by (apply Rmult_lt_0_compat; lra).
      split; intros H; [|lra].
      enough ((b - x) * (b - x) / ((b - a) * (b - c)) <= 1 - u) by lra.
      apply Rcomplements.Rle_div_l; [exact P'|]. nra.
    + lra.
  - (* upper branch: Q = b - s with s <= b - c *)
    pose proof (sqrt_pos ((b - a - u * (b - a)) * (b - c))) as S0. pose proof (sqrt_sqrt _ R2) as S2.
    set (s := sqrt _) in *. clearbody s. clear R1 R2.
    replace ((b - a - u * (b - a)) * (b - c)) with ((1 - u) * ((b - a) * (b - c))) in S2 by ring.
    assert (P : 0 < (b - a) * (b - c)) by (apply Rmult_lt_0_compat; lra).
    assert (S1 : s <= b - c) by nra.
    destruct (Rle_dec x a) as [X1|X1]; [|destruct (Rle_dec x c) as [X2|X2]; [|destruct (Rlt_dec x b) as [X3|X3]]].
    + (* both sides say u = 0, c = a, x = a *)
      split; intros H; nra.
    + (* both sides say x = c = Q *)
      assert (P' : 0 < (b - a) * (c - a)) by (apply Rmult_lt_0_compat; lra).
      rewrite <- (Rcomplements.Rle_div_r _ _ _ P'). split; intros H.
      * assert (x = c) by lra. assert (s = b - c) by lra. subst x s. nra.
      * assert (x = c) by nra. subst x. assert (u * (b - a) = c - a) by nra.
        enough (b - c <= s) by lra. apply sq_le; try lra. rewrite S2. nra.
    + destruct (quad_piece _ (1 - u) s (b - x) P S0 S2) as [_ D]; [lra|].
      transitivity (b - x <= s); [lra|]. rewrite D. lra.
    + lra.
Qed.

Example triangular_nonvacuous :
  (forall v, evals (triangular F64 (0, 0)%Z (4, 0)%Z (1, 0)%Z [2 ^ 63]%Z) v ->
     evalX (fst v) = Xreal (4 - sqrt 6)) /\
  (forall u x, 0 <= u < 1 -> 0 <= x -> (Q_tri 0 4 1 u <= x <-> u <= F_tri 0 4 1 x)).
Proof.
  split.
  - intros v H. apply triangular_value in H. destruct H as [_ H]. rewrite H, !dyR_int, uR_std_half.
    unfold Q_tri. destruct (Rlt_dec (1 / 2 * (4 - 0)) (1 - 0)) as [L|_]; [lra|].
    do 3 f_equal. field.
  - intros u x Hu Hx. apply triangular_event; lra.
Qed.
