(* Proofs/PmfRatio.v — the "evaluate f(y) via the recursive relationship" loops of BTPE and H2PE
   compute the exact pmf ratio pmf(y) / pmf(m) (real-number model of the f64 loops).

   binomial.rs, btpe, step 5.1 (296-327):
       let s = btpe.p / q;  let a = s * (n as f64 + 1.);  let mut f = 1.0;
       match m.cmp(&y) {
         Less    => { let mut i = m; loop { i += 1; f *= a / (i as f64) - s; if i == y { break; } } }
         Greater => { let mut i = y; loop { i += 1; f /= a / (i as f64) - s; if i == m { break; } } }
         Equal   => {} }
       if v > f { continue; } else { break; }

   hypergeometric.rs, H2PE, step 4.1 (359-377):
       let mut f = 1.0;
       if m < y { for i in (m as u64 + 1)..=(y as u64) {
                    f *= (n1 - i + 1) as f64 * (k - i + 1) as f64;
                    f /= i as f64 * (n2 - k + i) as f64; } }
       else     { for i in (y as u64 + 1)..=(m as u64) {
                    f *= i as f64 * (n2 - k + i) as f64;
                    f /= (n1 - i + 1) as f64 * (k - i + 1) as f64; } }
       if v <= f { break y as i64; }

   The loops are modelled with the accumulator [f] as a state variable, the counter running over
   i+1 .. i+cnt exactly as coded.                                                              *)
From Coq Require Import Reals Lra Lia.
From RD Require Import Proofs.RejectTools Proofs.PmfBinomial Proofs.PmfHyper.
Open Scope R_scope.

(* i += 1; f *= g i      — cnt iterations starting after i *)
Fixpoint loop_mul (g : nat -> R) (i cnt : nat) (f : R) : R :=
  match cnt with
  | O => f
  | S c => loop_mul g (S i) c (f * g (S i))
  end.

(* i += 1; f /= g i *)
Fixpoint loop_div (g : nat -> R) (i cnt : nat) (f : R) : R :=
  match cnt with
  | O => f
  | S c => loop_div g (S i) c (f / g (S i))
  end.

(* for i in (i0+1)..=(i0+cnt) { f *= num i; f /= den i } *)
Fixpoint loop_muldiv (num den : nat -> R) (i cnt : nat) (f : R) : R :=
  match cnt with
  | O => f
  | S c => loop_muldiv num den (S i) c (f * num (S i) / den (S i))
  end.

Lemma loop_mul_def : forall g i f, loop_mul g i 0 f = f /\
  forall c, loop_mul g i (S c) f = loop_mul g (S i) c (f * g (S i)).
Proof. intros. split; reflexivity. Qed.
Lemma loop_div_def : forall g i f, loop_div g i 0 f = f /\
  forall c, loop_div g i (S c) f = loop_div g (S i) c (f / g (S i)).
Proof. intros. split; reflexivity. Qed.
Lemma loop_muldiv_def : forall num den i f, loop_muldiv num den i 0 f = f /\
  forall c, loop_muldiv num den i (S c) f = loop_muldiv num den (S i) c (f * num (S i) / den (S i)).
Proof. intros. split; reflexivity. Qed.

(* the loops as plain products:  f * prod_{j=i+1}^{i+cnt} g j  etc. *)
Fixpoint prod_range (g : nat -> R) (i cnt : nat) : R :=
  match cnt with
  | O => 1
  | S c => prod_range g i c * g (i + S c)%nat
  end.

Lemma prod_range_def : forall g i, prod_range g i 0 = 1 /\
  forall c, prod_range g i (S c) = prod_range g i c * g (i + S c)%nat.
Proof. intros. split; reflexivity. Qed.

Lemma prod_range_shift : forall g c i, prod_range g i (S c) = g (S i) * prod_range g (S i) c.
Proof.
  intros g c. induction c as [|c IH]; intros i.
  - simpl. replace (i + 1)%nat with (S i) by lia. ring.
  - change (prod_range g i (S (S c))) with (prod_range g i (S c) * g (i + S (S c))%nat).
    rewrite IH. cbn [prod_range]. replace (S i + S c)%nat with (i + S (S c))%nat by lia. ring.
Qed.

Lemma loop_mul_prod : forall g cnt i f, loop_mul g i cnt f = f * prod_range g i cnt.
Proof.
  intros g cnt. induction cnt as [|c IH]; intros i f.
  - simpl. ring.
  - cbn [loop_mul]. rewrite IH, prod_range_shift. ring.
Qed.

Lemma loop_div_prod : forall g cnt i f, loop_div g i cnt f = f / prod_range g i cnt.
Proof.
  intros g cnt. induction cnt as [|c IH]; intros i f.
  - simpl. field.
  - cbn [loop_div]. rewrite IH, prod_range_shift. unfold Rdiv. rewrite Rinv_mult. ring.
Qed.

Lemma loop_muldiv_prod : forall num den cnt i f,
  loop_muldiv num den i cnt f = f * prod_range (fun j => num j / den j) i cnt.
Proof.
  intros num den cnt. induction cnt as [|c IH]; intros i f.
  - simpl. ring.
  - cbn [loop_muldiv]. rewrite IH, prod_range_shift. unfold Rdiv. ring.
Qed.

Lemma loop_muldiv_prod_inv : forall num den cnt i f,
  loop_muldiv den num i cnt f = f / prod_range (fun j => num j / den j) i cnt.
Proof.
  intros num den cnt. induction cnt as [|c IH]; intros i f.
  - simpl. field.
  - cbn [loop_muldiv]. rewrite IH, prod_range_shift. unfold Rdiv.
    rewrite !Rinv_mult, Rinv_inv. ring.
Qed.

(* telescoping: if P (S j) = P j * g (S j) along the range, the product of g over i+1 .. i+cnt
   is P (i+cnt) / P i *)
Lemma prod_range_ratio : forall (P g : nat -> R) i cnt, P i <> 0 ->
  (forall j, (i <= j < i + cnt)%nat -> P (S j) = P j * g (S j)) ->
  prod_range g i cnt = P (i + cnt)%nat / P i.
Proof.
  intros P g i cnt Hnz. induction cnt as [|c IH]; intros Hstep.
  - simpl. rewrite Nat.add_0_r. field. exact Hnz.
  - cbn [prod_range]. rewrite Nat.add_succ_r, Hstep by lia.
    rewrite IH by (intros j Hj; apply Hstep; lia). unfold Rdiv. ring.
Qed.

(* the value of [f] after the match of step 5.1, with the constants a and s of the code *)
Definition btpe_f (a s : R) (m y : nat) : R :=
  match Nat.compare m y with
  | Lt => loop_mul (fun i => a / INR i - s) m (y - m) 1
  | Gt => loop_div (fun i => a / INR i - s) y (m - y) 1
  | Eq => 1
  end.

Lemma btpe_f_def : forall a s m y,
  btpe_f a s m y =
  match Nat.compare m y with
  | Lt => loop_mul (fun i => a / INR i - s) m (y - m) 1
  | Gt => loop_div (fun i => a / INR i - s) y (m - y) 1
  | Eq => 1
  end.
Proof. reflexivity. Qed.

(* the factors a/i - s for i = m+1 .. y multiply to pmf(y) / pmf(m) *)
Lemma btpe_prod : forall (n : nat) (p : R) (m y : nat), 0 < p < 1 -> (m <= y <= n)%nat ->
  prod_range (fun i => p / (1 - p) * (INR n + 1) / INR i - p / (1 - p)) m (y - m)
  = binom_pmf n p y / binom_pmf n p m.
Proof.
  intros n p m y Hp Hmy. rewrite (prod_range_ratio (binom_pmf n p)).
  - replace (m + (y - m))%nat with y by lia. reflexivity.
  - apply binom_pmf_nz; [assumption|lia].
  - intros j Hj. apply binom_pmf_step; [assumption|lia].
Qed.

(* the two branches as explicit products, as in the informal description of the algorithm *)
Theorem btpe_exact_ratio_prod : forall (n : nat) (p : R) (m y : nat), 0 < p < 1 ->
  (m <= n)%nat -> (y <= n)%nat ->
  let q := 1 - p in let s := p / q in let a := s * (INR n + 1) in
  let pmf := fun x => C n x * p ^ x * q ^ (n - x) in
  ((m < y)%nat -> prod_range (fun i => a / INR i - s) m (y - m) = pmf y / pmf m) /\
  ((y < m)%nat -> 1 / prod_range (fun i => a / INR i - s) y (m - y) = pmf y / pmf m).
Proof.
  intros n p m y Hp Hm Hy q s a pmf. split; intros H; unfold a, s, q; rewrite (btpe_prod n p _ _ Hp) by lia.
  - reflexivity.
  - unfold Rdiv. rewrite Rmult_1_l. apply Rinv_div.
Qed.

(* step 5.1 computes pmf(y) / pmf(m) exactly *)
Theorem btpe_exact_ratio : forall (n : nat) (p : R) (m y : nat), 0 < p < 1 ->
  (m <= n)%nat -> (y <= n)%nat ->
  let q := 1 - p in let s := p / q in let a := s * (INR n + 1) in
  btpe_f a s m y
  = (C n y * p ^ y * q ^ (n - y)) / (C n m * p ^ m * q ^ (n - m)).
Proof.
  intros n p m y Hp Hm Hy q s a.
  destruct (btpe_exact_ratio_prod n p m y Hp Hm Hy) as [Up Down]. fold q s a in Up, Down.
  unfold btpe_f. destruct (Nat.compare_spec m y) as [E|L|G].
  - subst y. symmetry. apply Rinv_r, (binom_pmf_nz n p Hp m Hm).
  - rewrite loop_mul_prod, Up by exact L. ring.
  - rewrite loop_div_prod. apply Down, G.
Qed.

(* the acceptance test of the code:  `if v > f { continue } else { break }` *)
Theorem btpe_accept_iff : forall (n : nat) (p : R) (m y : nat) (v : R), 0 < p < 1 ->
  (m <= n)%nat -> (y <= n)%nat ->
  let q := 1 - p in let s := p / q in let a := s * (INR n + 1) in
  (~ (v > btpe_f a s m y) <->
   v * (C n m * p ^ m * q ^ (n - m)) <= C n y * p ^ y * q ^ (n - y)).
Proof.
  intros n p m y v Hp Hm Hy q s a.
  unfold a, s, q. rewrite (btpe_exact_ratio n p m y Hp Hm Hy).
  rewrite <- Rle_div_iff by apply (binom_pmf_pos n p Hp m). split; lra.
Qed.

(* the u64 expressions of the code, as naturals (truncated subtraction) cast to R *)
Definition h2pe_num (n1 k : nat) (i : nat) : R := INR (n1 - i + 1) * INR (k - i + 1).
Definition h2pe_den (n2 k : nat) (i : nat) : R := INR i * INR (n2 - k + i).

Definition h2pe_f (n1 n2 k m y : nat) : R :=
  if (m <? y)%nat
  then loop_muldiv (h2pe_num n1 k) (h2pe_den n2 k) m (y - m) 1
  else loop_muldiv (h2pe_den n2 k) (h2pe_num n1 k) y (m - y) 1.

Lemma h2pe_f_def : forall n1 n2 k m y,
  h2pe_f n1 n2 k m y =
  if (m <? y)%nat
  then loop_muldiv (fun i => INR (n1 - i + 1) * INR (k - i + 1))
                   (fun i => INR i * INR (n2 - k + i)) m (y - m) 1
  else loop_muldiv (fun i => INR i * INR (n2 - k + i))
                   (fun i => INR (n1 - i + 1) * INR (k - i + 1)) y (m - y) 1.
Proof. reflexivity. Qed.

(* one step of the hypergeometric pmf with the factors as written in step 4.1 (index i = x+1);
   this is [hin_recurrence] re-indexed *)
Lemma hyper_pmf_step : forall n1 n2 k x : nat,
  (S x <= n1)%nat -> (S x <= k)%nat -> (k <= n2)%nat ->
  hyper_pmf (n1 + n2) n1 k (S x)
  = hyper_pmf (n1 + n2) n1 k x * (h2pe_num n1 k (S x) / h2pe_den n2 k (S x)).
Proof.
  intros n1 n2 k x H1 Hk H2. rewrite hin_recurrence by (try assumption; lia).
  unfold h2pe_num, h2pe_den.
  replace (n1 - S x + 1)%nat with (n1 - x)%nat by lia.
  replace (k - S x + 1)%nat with (k - x)%nat by lia.
  rewrite !minus_INR, plus_INR, minus_INR, S_INR by lia.
  unfold Rdiv. rewrite Rmult_assoc. do 3 f_equal. ring.
Qed.

Lemma h2pe_den_nz : forall n2 k x, h2pe_den n2 k (S x) <> 0.
Proof.
  intros n2 k x. apply Rmult_integral_contrapositive_currified; apply not_0_INR; lia.
Qed.

(* the factors num i / den i for i = m+1 .. y multiply to pmf(y) / pmf(m) *)
Lemma h2pe_prod : forall n1 n2 k m y,
  (k <= n2)%nat -> (m <= y)%nat -> (y <= n1)%nat -> (y <= k)%nat ->
  prod_range (fun i => h2pe_num n1 k i / h2pe_den n2 k i) m (y - m)
  = hyper_pmf (n1 + n2) n1 k y / hyper_pmf (n1 + n2) n1 k m.
Proof.
  intros n1 n2 k m y Hk Hmy H1 H2. rewrite (prod_range_ratio (hyper_pmf (n1 + n2) n1 k)).
  - replace (m + (y - m))%nat with y by lia. reflexivity.
  - apply Rgt_not_eq, hyper_pmf_pos.
  - intros j Hj. apply hyper_pmf_step; lia.
Qed.

(* step 4.1 computes pmf(y) / pmf(m) exactly; (n1, n2, k) are the reduced parameters of `new`
   (n1 <= n2, k <= (n1+n2)/2, hence k <= n2), y and m lie in the support [0, min(n1,k)] *)
Theorem h2pe_exact_ratio : forall n1 n2 k m y : nat,
  (k <= n2)%nat -> (m <= n1)%nat -> (m <= k)%nat -> (y <= n1)%nat -> (y <= k)%nat ->
  h2pe_f n1 n2 k m y
  = (C n1 y * C n2 (k - y) / C (n1 + n2) k) / (C n1 m * C n2 (k - m) / C (n1 + n2) k).
Proof.
  intros n1 n2 k m y Hk Hm1 Hm2 Hy1 Hy2. rewrite <- !hyper_pmf_split.
  unfold h2pe_f. destruct (Nat.ltb_spec m y) as [L|G].
  - rewrite loop_muldiv_prod, h2pe_prod by lia. ring.
  - rewrite loop_muldiv_prod_inv, h2pe_prod by lia. unfold Rdiv. rewrite Rmult_1_l. apply Rinv_div.
Qed.

(* the common normaliser cancels: the ratio of the unnormalised weights *)
Theorem h2pe_exact_ratio_weights : forall n1 n2 k m y : nat,
  (k <= n2)%nat -> (m <= n1)%nat -> (m <= k)%nat -> (y <= n1)%nat -> (y <= k)%nat ->
  h2pe_f n1 n2 k m y = (C n1 y * C n2 (k - y)) / (C n1 m * C n2 (k - m)).
Proof.
  intros n1 n2 k m y Hk Hm1 Hm2 Hy1 Hy2. rewrite h2pe_exact_ratio by assumption.
  field. repeat split; apply Rgt_not_eq, C_pos.
Qed.

(* the acceptance test of the code:  `if v <= f { break y }` *)
Theorem h2pe_accept_iff : forall (n1 n2 k m y : nat) (v : R),
  (k <= n2)%nat -> (m <= n1)%nat -> (m <= k)%nat -> (y <= n1)%nat -> (y <= k)%nat ->
  (v <= h2pe_f n1 n2 k m y <->
   v * hyper_pmf (n1 + n2) n1 k m <= hyper_pmf (n1 + n2) n1 k y).
Proof.
  intros n1 n2 k m y v Hk Hm1 Hm2 Hy1 Hy2.
  rewrite h2pe_exact_ratio, <- !hyper_pmf_split by assumption. apply Rle_div_iff, hyper_pmf_pos.
Qed.

(* Binomial(4, 1/2), m = 2, y = 3:  one iteration, f = a/3 - s = 5/3 - 1 = 2/3 = C(4,3)/C(4,2) *)
Example btpe_f_example : btpe_f (1 * (INR 4 + 1)) 1 2 3 = 2 / 3.
Proof. unfold btpe_f. simpl. lra. Qed.

(* and downwards, m = 2, y = 0:  f = 1 / (5/1 - 1) / (5/2 - 1) = 1/6 = C(4,0)/C(4,2) *)
Example btpe_f_example_down : btpe_f (1 * (INR 4 + 1)) 1 2 0 = 1 / 6.
Proof. unfold btpe_f. simpl. field. Qed.

(* Hypergeometric n1 = 3, n2 = 5, k = 4, m = 1, y = 2:
   f = (3-2+1)(4-2+1) / (2 (5-4+2)) = 6/6 = 1 = C(3,2)C(5,2) / (C(3,1)C(5,3)) = 30/30 *)
Example h2pe_f_example : h2pe_f 3 5 4 1 2 = 1.
Proof. unfold h2pe_f, h2pe_num, h2pe_den. simpl. field. Qed.
