(* Proofs/RejectBeta.v — Cheng's (1978) Beta samplers BB and BC (beta.rs:121-270).

   BB (a = min(a0,b0) > 1, b = max):  alpha = a + b, beta = sqrt((alpha-2)/(2ab-alpha)), gamma = a + 1/beta
     loop:  u1, u2 = Open01;  v = beta ln(u1/(1-u1));  w = a e^v;  z = u1 u1 u2;
            r = gamma v - ln 4;  s = a + r - w;
            2. if s + 1 + ln 5 >= 5 z  { break }
            3. t = ln z;  if s >= t    { break }
            4. if !(r + alpha ln(alpha/(b+w)) < t) { break }
   BC (a = max, b = min <= 1):        alpha = a + b, beta = 1/b;  final test (step 5):
            if !(alpha (ln(alpha/(b+w)) + v) - ln 4 < ln z) { break }
   result:  w/(b+w)   (or b/(b+w) = 1 - w/(b+w) when the parameters were switched)

   With lambda = 1/beta:
     bb_proposal_cdf       W = a (U1/(1-U1))^beta  has CDF  G(w) = w^lambda/(a^lambda + w^lambda)
     bb_proposal_density   G' = g,  g(w) = lambda a^lambda w^(lambda-1)/(a^lambda + w^lambda)^2
     beta_prime_kernel     W = b X/(1-X), X ~ Beta(a,b), has density prop. to f(w) = w^(a-1)/(b+w)^(a+b)
     bb_accept_ratio       exp(r + alpha ln(alpha/(b+w))) / u1^2 = C f(w)/g(w),  C = lambda alpha^alpha/(4 a^a)
     bb_exact_test         step 4 accepts  <->  u2 <= C f(W)/g(W)   (for any beta > 0 with gamma = a + 1/beta;
                           bc_exact_test is the instance beta = 1/b, gamma = alpha)
     bb_squeeze3 / bb_squeeze2   steps 3 and 2 imply step 4                                             *)
From Coq Require Import Reals Lra.
From Coquelicot Require Import Coquelicot.
From RD Require Import Proofs.RejectTools.
Open Scope R_scope.

Definition bb_V (beta u : R) : R := beta * ln (u / (1 - u)).
Definition bb_W (a beta u : R) : R := a * exp (bb_V beta u).
Definition bb_R (gamma v : R) : R := gamma * v - ln 4.
Definition bb_S (a r w : R) : R := a + r - w.
(* left side of the exact test: accept iff ln z <= bb_E ... *)
Definition bb_E (a b r w : R) : R := r + (a + b) * ln ((a + b) / (b + w)).

(* proposal cdf / density (log-logistic), lam = 1/beta *)
Definition bb_G (a lam w : R) : R := Rpower w lam / (Rpower a lam + Rpower w lam).
Definition bb_g (a lam w : R) : R :=
  lam * Rpower a lam * Rpower w (lam - 1) / (Rpower a lam + Rpower w lam) ^ 2.
(* target kernel for W = b X / (1 - X) *)
Definition bb_f (a b w : R) : R := Rpower w (a - 1) / Rpower (b + w) (a + b).
Definition bb_C (a b lam : R) : R := lam * Rpower (a + b) (a + b) / (4 * Rpower a a).

Lemma bb_defs : forall a b beta gamma lam u v r w,
  bb_V beta u = beta * ln (u / (1 - u)) /\
  bb_W a beta u = a * exp (bb_V beta u) /\
  bb_R gamma v = gamma * v - ln 4 /\
  bb_S a r w = a + r - w /\
  bb_E a b r w = r + (a + b) * ln ((a + b) / (b + w)) /\
  bb_G a lam w = Rpower w lam / (Rpower a lam + Rpower w lam) /\
  bb_g a lam w = lam * Rpower a lam * Rpower w (lam - 1) / (Rpower a lam + Rpower w lam) ^ 2 /\
  bb_f a b w = Rpower w (a - 1) / Rpower (b + w) (a + b) /\
  bb_C a b lam = lam * Rpower (a + b) (a + b) / (4 * Rpower a a).
Proof. intros. repeat split. Qed.

Lemma Rpower_div_distr : forall x y z, 0 < x -> 0 < y -> Rpower (x / y) z = Rpower x z / Rpower y z.
Proof.
  intros x y z Hx Hy. unfold Rpower, Rdiv. rewrite ln_mult, ln_Rinv; try lra.
  - rewrite <- exp_Ropp, <- exp_plus. f_equal. ring.
  - apply Rinv_0_lt_compat. exact Hy.
Qed.

Lemma Rpower_pred : forall x y, 0 < x -> Rpower x (y - 1) = Rpower x y / x.
Proof.
  intros x y Hx. unfold Rdiv. rewrite <- (Rpower_1 x Hx) at 3.
  rewrite <- Rpower_Ropp, <- Rpower_plus. reflexivity.
Qed.

Theorem bb_W_pos : forall a beta u1, 0 < a -> 0 < bb_W a beta u1.
Proof. intros. unfold bb_W. apply Rmult_lt_0_compat; [assumption | apply exp_pos]. Qed.

Lemma bb_W_pow : forall a beta u p, 0 < a ->
  Rpower (bb_W a beta u) p = Rpower a p * exp (p * bb_V beta u).
Proof.
  intros a beta u p Ha. unfold bb_W. rewrite <- Rpower_mult_distr by (try apply exp_pos; exact Ha).
  unfold Rpower at 2. rewrite ln_exp. reflexivity.
Qed.

Lemma bb_exp_V : forall beta u, 0 < beta -> 0 < u < 1 -> exp (/ beta * bb_V beta u) = u / (1 - u).
Proof.
  intros beta u Hb Hu. unfold bb_V. rewrite <- Rmult_assoc, Rinv_l, Rmult_1_l by lra.
  apply exp_ln, Rdiv_lt_0_compat; lra.
Qed.

Theorem bb_proposal_cdf : forall a beta u1, 0 < a -> 0 < beta -> 0 < u1 < 1 ->
  bb_G a (/ beta) (bb_W a beta u1) = u1.
Proof.
  intros a beta u1 Ha Hbeta Hu. unfold bb_G. rewrite bb_W_pow, bb_exp_V by assumption.
  pose proof (Rpower_pos a (/ beta)). field. split; lra.
Qed.

Theorem bb_proposal_density : forall a lam w, 0 < a -> 0 < w ->
  is_derive (bb_G a lam) w (bb_g a lam w).
Proof.
  intros a lam w Ha Hw. unfold bb_G, bb_g. rewrite Rpower_pred by exact Hw.
  pose proof (Rpower_pos a lam). pose proof (Rpower_pos w lam). unfold Rpower in *.
  auto_derive; [| field]; repeat split; lra.
Qed.

(* density of W = b X/(1-X) for X ~ Beta(a,b): x^(a-1) (1-x)^(b-1) dx/dw at x = w/(b+w) *)
Theorem beta_prime_kernel : forall a b w, 0 < b -> 0 < w ->
  let x := w / (b + w) in
  is_derive (fun w => w / (b + w)) w (b / (b + w) ^ 2) /\
  Rpower x (a - 1) * Rpower (1 - x) (b - 1) * (b / (b + w) ^ 2) = Rpower b b * bb_f a b w.
Proof.
  intros a b w Hb Hw x. split; [auto_derive; [| field]; lra |].
  assert (Hbw : 0 < b + w) by lra.
  replace (1 - x) with (b / (b + w)) by (unfold x; field; lra). unfold x, bb_f.
  rewrite !Rpower_div_distr, (Rpower_pred b) by assumption.
  replace (Rpower (b + w) (a + b))
    with (Rpower (b + w) (a - 1) * Rpower (b + w) (b - 1) * Rpower (b + w) (INR 2))
    by (rewrite <- !Rpower_plus; f_equal; simpl; ring).
  rewrite Rpower_pow by exact Hbw.
  pose proof (Rpower_pos (b + w) (a - 1)). pose proof (Rpower_pos (b + w) (b - 1)).
  field. repeat split; lra.
Qed.

(* With o = u1/(1-u1):  W^lam = a^lam o,  W^a = a^a e^(a V),  e^(V/beta) = o  and  o/u1^2 = (1+o)^2/o;
   both sides are  e^(a V) (1+o)^2 / (4 o) * ((a+b)/(b+W))^(a+b). *)
Theorem bb_accept_ratio : forall a b beta u1, 0 < a -> 0 < b -> 0 < beta -> 0 < u1 < 1 ->
  let v := bb_V beta u1 in let w := bb_W a beta u1 in
  exp (bb_E a b (bb_R (a + / beta) v) w) / (u1 * u1)
  = bb_C a b (/ beta) * (bb_f a b w / bb_g a (/ beta) w).
Proof.
  intros a b beta u1 Ha Hb Hbeta Hu v w.
  pose proof (bb_W_pos a beta u1 Ha) as Hw.
  pose proof (bb_exp_V beta u1 Hbeta Hu) as EV.
  pose proof (bb_W_pow a beta u1 a Ha) as Pa.
  pose proof (bb_W_pow a beta u1 (/ beta) Ha) as Pl. rewrite EV in Pl.
  fold v in EV, Pa. fold w in Hw, Pa, Pl.
  unfold bb_E, bb_R, bb_C, bb_f, bb_g.
  replace ((a + / beta) * v - ln 4 + (a + b) * ln ((a + b) / (b + w)))
    with (a * v + / beta * v + - ln 4 + (a + b) * ln ((a + b) / (b + w))) by ring.
  rewrite !exp_plus, EV, exp_Ropp, exp_ln by lra. fold (Rpower ((a + b) / (b + w)) (a + b)).
  rewrite Rpower_div_distr, !Rpower_pred, Pa, Pl by lra.
  pose proof (Rpower_pos a (/ beta)). pose proof (Rpower_pos a a).
  pose proof (Rpower_pos (b + w) (a + b)). pose proof (exp_pos (a * v)).
  field. repeat split; lra.
Qed.

Theorem bb_exact_test : forall a b beta u1 u2, 0 < a -> 0 < b -> 0 < beta -> 0 < u1 < 1 -> 0 < u2 ->
  let v := bb_V beta u1 in let w := bb_W a beta u1 in
  (ln (u1 * u1 * u2) <= bb_E a b (bb_R (a + / beta) v) w
   <-> u2 <= bb_C a b (/ beta) * (bb_f a b w / bb_g a (/ beta) w)).
Proof.
  intros a b beta u1 u2 Ha Hb Hbeta Hu1 Hu2. cbv zeta.
  rewrite <- (bb_accept_ratio a b beta u1 Ha Hb Hbeta Hu1).
  assert (Huu : 0 < u1 * u1) by nra.
  rewrite ln_le_exp, Rle_div_iff, (Rmult_comm u2) by nra. reflexivity.
Qed.

(* the envelope touches at the mode of the proposal: u1 = 1/2 gives w = a and acceptance probability 1
   (so the constant bb_C cannot be improved; that C f/g <= 1 everywhere is Cheng's theorem, not proved here) *)
Theorem bb_accept_at_half : forall a b gamma beta, 0 < a -> 0 < b ->
  bb_W a beta (1 / 2) = a /\
  exp (bb_E a b (bb_R gamma (bb_V beta (1 / 2))) (bb_W a beta (1 / 2))) / (1 / 2 * (1 / 2)) = 1.
Proof.
  intros a b gamma beta Ha Hb.
  assert (HV : bb_V beta (1 / 2) = 0).
  { unfold bb_V. replace (1 / 2 / (1 - 1 / 2)) with 1 by field. rewrite ln_1. ring. }
  assert (HW : bb_W a beta (1 / 2) = a) by (unfold bb_W; rewrite HV, exp_0; ring).
  split; [exact HW |]. rewrite HW, HV. unfold bb_E, bb_R.
  replace ((a + b) / (b + a)) with 1 by (field; lra). rewrite ln_1.
  replace (gamma * 0 - ln 4 + (a + b) * 0) with (- ln 4) by ring.
  rewrite exp_Ropp, exp_ln by lra. field.
Qed.

(* BC step 5 is the same test with beta = 1/b (lambda = b), gamma = a + b = alpha *)
Theorem bc_exact_test : forall a b u1 u2, 0 < a -> 0 < b -> 0 < u1 < 1 -> 0 < u2 ->
  let v := bb_V (1 / b) u1 in let w := bb_W a (1 / b) u1 in
  (ln (u1 * u1 * u2) <= (a + b) * (ln ((a + b) / (b + w)) + v) - ln 4
   <-> u2 <= bb_C a b b * (bb_f a b w / bb_g a b w)).
Proof.
  intros a b u1 u2 Ha Hb Hu1 Hu2 v w.
  assert (Hbeta : 0 < 1 / b) by (apply Rdiv_lt_0_compat; lra).
  pose proof (bb_exact_test a b (1 / b) u1 u2 Ha Hb Hbeta Hu1 Hu2) as T. cbv zeta in T.
  fold v w in T. replace (/ (1 / b)) with b in T by (field; lra).
  replace ((a + b) * (ln ((a + b) / (b + w)) + v) - ln 4) with (bb_E a b (bb_R (a + b) v) w)
    by (unfold bb_E, bb_R; ring).
  exact T.
Qed.

(* a - w <= alpha ln (alpha/(b+w)),  from ln y <= y - 1 at y = (b+w)/alpha *)
Lemma bb_key_ineq : forall a b w, 0 < a -> 0 < b -> 0 < w ->
  a - w <= (a + b) * ln ((a + b) / (b + w)).
Proof.
  intros a b w Ha Hb Hw.
  assert (Hy : 0 < (b + w) / (a + b)) by (apply Rdiv_lt_0_compat; lra).
  replace ((a + b) / (b + w)) with (/ ((b + w) / (a + b))) by (field; lra).
  rewrite ln_Rinv by exact Hy. pose proof (ln_le_minus_1 _ Hy) as L.
  apply (Rmult_le_compat_l (a + b)) in L; [| lra].
  replace ((a + b) * ((b + w) / (a + b) - 1)) with (w - a) in L by (field; lra). lra.
Qed.

(* step 3: s >= t implies the exact test *)
Theorem bb_squeeze3 : forall a b r w t, 0 < a -> 0 < b -> 0 < w ->
  t <= bb_S a r w -> t <= bb_E a b r w.
Proof.
  intros a b r w t Ha Hb Hw H. pose proof (bb_key_ineq a b w Ha Hb Hw). unfold bb_S, bb_E in *. lra.
Qed.

(* step 2: s + 1 + ln 5 >= 5 z implies s >= ln z (step 3), hence the exact test *)
Theorem bb_squeeze2 : forall a b r w z, 0 < a -> 0 < b -> 0 < w -> 0 < z ->
  5 * z <= bb_S a r w + 1 + ln 5 -> ln z <= bb_S a r w /\ ln z <= bb_E a b r w.
Proof.
  intros a b r w z Ha Hb Hw Hz H.
  assert (L : ln z <= bb_S a r w).
  { pose proof (ln_le_minus_1 (5 * z) ltac:(lra)) as L. rewrite ln_mult in L by lra. lra. }
  split; [exact L | apply bb_squeeze3; assumption].
Qed.

Theorem beta_final_map : forall b w, 0 < b -> 0 < w ->
  0 < w / (b + w) < 1 /\ b / (b + w) = 1 - w / (b + w).
Proof.
  intros b w Hb Hw. split; [split |].
  - apply Rdiv_lt_0_compat; lra.
  - apply Rlt_div_iff; lra.
  - field. lra.
Qed.
