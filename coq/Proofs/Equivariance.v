(* Proofs/Equivariance.v — property C07: location and scale parameters act as exact affine maps
   on a fixed random stream, and the same RNG words are consumed.

   Every theorem `<D>_smap` says that the decision tree of the parameterised sampler is the
   decision tree of a standard sampler (no location/scale) with a fixed expression map applied
   to the leaves (`smap`): the same comparisons are asked in the same order, the same words are
   read, the same failures occur (also on word lists that are too short), and every leaf
   `(z, rest)` becomes `(f z, rest)`.
     - `<D>_smap_req`: up to `req` (equality of trees, pointwise on the continuations of the
       Ask nodes) — axiom free;
     - `<D>_smap`: as a syntactic equality `=` of trees.  For the samplers reading one word this
       is by computation; for the others it follows from the `req` statement by functional
       extensionality (the only axiom used in the first part of this file).
   Then the semantic corollaries (`<D>_affine`, `<D>_scale`) for the exact semantics `evals` of
   Base/Run.v, all instances of `smap_sem`: the parameterised sampler yields the real y leaving the
   words `rest` iff the standard sampler yields some x leaving the same words and y = loc + scale * x.
   Last, the families where the expressions inside the decisions change with the parameters, so that
   only a semantic statement holds: InverseGaussian (mu, lambda) -> (c mu, c lambda) and Pert under
   x -> a + b x on (min, max, mode), both through the tree simulation `rsim` (every decision compares
   the same two real numbers), and Triangular under the same map, where the two sides of the
   decision are both scaled by b.                                                                  *)
From Coq Require Import Reals List Lra FunctionalExtensionality.
From Interval Require Import Xreal.
From RD Require Import Base.Expr Base.Run Model.Sampler Model.Continuous Proofs.RunSound Proofs.LawsInvCdf
  Proofs.LawsTriangular.
Open Scope Z_scope.
Open Scope sampler_scope.

Import ExprNotations.

(* the statements below only need that these are *some* sampler *)
Opaque std_normal exp1 gamma_unscaled.

Fixpoint rmap {A B} (f : A -> B) (r : run A) : run B :=
  match r with
  | Ret a => Ret (f a)
  | Ask c a b k => Ask c a b (fun t => rmap f (k t))
  | AskFloor e k => AskFloor e (fun z => rmap f (k z))
  | Fail c => Fail c
  end.
Definition smap {A B} (f : A -> B) (m : sampler A) : sampler B :=
  fun ws => rmap (fun '(a, rest) => (f a, rest)) (m ws).

Inductive req {A} : run A -> run A -> Prop :=
| RqRet a : req (Ret a) (Ret a)
| RqAsk c a b k1 k2 : (forall t, req (k1 t) (k2 t)) -> req (Ask c a b k1) (Ask c a b k2)
| RqFloor e k1 k2 : (forall z, req (k1 z) (k2 z)) -> req (AskFloor e k1) (AskFloor e k2)
| RqFail c : req (Fail c) (Fail c).

Lemma req_refl {A} (r : run A) : req r r.
Proof. induction r; constructor; auto. Qed.
Lemma req_sym {A} (r1 r2 : run A) : req r1 r2 -> req r2 r1.
Proof. induction 1; constructor; auto. Qed.
Lemma req_trans {A} (r1 r2 r3 : run A) : req r1 r2 -> req r2 r3 -> req r1 r3.
Proof.
  intros H. revert r3. induction H; intros r3 H3; inversion H3; subst; constructor; auto.
Qed.
Lemma eq_req {A} (r1 r2 : run A) : r1 = r2 -> req r1 r2.
Proof. intros ->. apply req_refl. Qed.

(* req is equality (functional extensionality) *)
Lemma req_eq {A} (r1 r2 : run A) : req r1 r2 -> r1 = r2.
Proof.
  induction 1; try reflexivity; f_equal; apply functional_extensionality; assumption.
Qed.
Lemma req_iff_eq {A} (r1 r2 : run A) : req r1 r2 <-> r1 = r2.
Proof. split; [apply req_eq|apply eq_req]. Qed.

(* req-related trees have the same exact semantics (no axiom) *)
Lemma req_evals {A} (r1 r2 : run A) v : req r1 r2 -> evals r1 v -> evals r2 v.
Proof.
  induction 1; intros E; inversion E; subst.
  - constructor.
  - eapply EvAsk; eauto.
  - eapply EvFloor; eauto.
Qed.
Lemma req_evals_iff {A} (r1 r2 : run A) v : req r1 r2 -> (evals r1 v <-> evals r2 v).
Proof. intros H. split; apply req_evals; [|apply req_sym]; exact H. Qed.

Lemma bind_cong {A B} (r : run A) (k1 k2 : A -> run B) :
  (forall a, req (k1 a) (k2 a)) -> req (bind r k1) (bind r k2).
Proof. intros H. induction r; cbn; try constructor; auto. Qed.
Lemma rmap_bind {A B C} (f : B -> C) (r : run A) (k : A -> run B) :
  req (rmap f (bind r k)) (bind r (fun a => rmap f (k a))).
Proof. induction r; cbn; try constructor; auto. apply req_refl. Qed.
Lemma bind_ret_rmap {A B} (f : A -> B) (r : run A) :
  req (bind r (fun a => Ret (f a))) (rmap f r).
Proof. induction r; cbn; constructor; auto. Qed.
Lemma rmap_cong {A B} (f : A -> B) (r1 r2 : run A) : req r1 r2 -> req (rmap f r1) (rmap f r2).
Proof. induction 1; cbn; constructor; auto. Qed.
Lemma rmap_ext {A B} (f g : A -> B) (r : run A) : (forall a, f a = g a) -> req (rmap f r) (rmap g r).
Proof. intros H. induction r; cbn; try constructor; auto. rewrite H. constructor. Qed.
Lemma rmap_rmap {A B C} (f : A -> B) (g : B -> C) (r : run A) :
  req (rmap g (rmap f r)) (rmap (fun a => g (f a)) r).
Proof. induction r; cbn; constructor; auto. Qed.

(* rmap f r is bind r (Ret . f) *)
Lemma rmap_evals {A B} (f : A -> B) (r : run A) v :
  evals (rmap f r) v <-> exists a, evals r a /\ v = f a.
Proof.
  rewrite <- (req_evals_iff _ _ _ (bind_ret_rmap f r)), bind_evals_iff.
  split; intros [a [E H]]; exists a; (split; [exact E|]); [now inversion H|subst; constructor].
Qed.

Definition seq {A} (m1 m2 : sampler A) : Prop := forall ws, req (m1 ws) (m2 ws).

Lemma seq_refl {A} (m : sampler A) : seq m m.
Proof. intros ws. apply req_refl. Qed.
Lemma seq_sym {A} (m1 m2 : sampler A) : seq m1 m2 -> seq m2 m1.
Proof. intros H ws. apply req_sym, H. Qed.
Lemma seq_trans {A} (m1 m2 m3 : sampler A) : seq m1 m2 -> seq m2 m3 -> seq m1 m3.
Proof. intros H1 H2 ws. eapply req_trans; [apply H1|apply H2]. Qed.
Lemma seq_eq {A} (m1 m2 : sampler A) : seq m1 m2 -> m1 = m2.
Proof. intros H. apply functional_extensionality. intros ws. apply req_eq, H. Qed.

Lemma sbind_cong {A B} (m : sampler A) (k1 k2 : A -> sampler B) :
  (forall a, seq (k1 a) (k2 a)) -> seq (sbind m k1) (sbind m k2).
Proof. intros H ws. unfold sbind. apply bind_cong. intros [a ws']. apply H. Qed.
(* smap commutes with sbind *)
Lemma smap_sbind {A B C} (f : B -> C) (m : sampler A) (k : A -> sampler B) :
  seq (smap f (sbind m k)) (sbind m (fun x => smap f (k x))).
Proof.
  intros ws. unfold smap, sbind. eapply req_trans; [apply rmap_bind|].
  apply bind_cong. intros [a ws']. apply req_refl.
Qed.
Lemma smap_sret {A B} (f : A -> B) (a : A) ws : smap f (sret a) ws = sret (f a) ws.
Proof. reflexivity. Qed.
Lemma smap_sfail {A B} (f : A -> B) c ws : smap f (sfail c) ws = sfail c ws.
Proof. reflexivity. Qed.
(* ... and with a decision: literally *)
Lemma smap_sask {A B} (f : A -> B) c a b (k : bool -> sampler A) ws :
  smap f (sbind (sask c a b) k) ws = sbind (sask c a b) (fun t => smap f (k t)) ws.
Proof. reflexivity. Qed.
Lemma smap_next_word {A B} (f : A -> B) (k : Z -> sampler A) ws :
  smap f (sbind next_word k) ws = sbind next_word (fun w => smap f (k w)) ws.
Proof. destruct ws; reflexivity. Qed.
(* a sampler that ends by returning f of its last intermediate value *)
Lemma sbind_sret_smap {A B} (f : A -> B) (m : sampler A) :
  seq (sbind m (fun a => sret (f a))) (smap f m).
Proof.
  intros ws. unfold sbind, smap, sret.
  eapply req_trans; [|apply (bind_ret_rmap (fun '(a, rest) => (f a, rest)))].
  apply bind_cong. intros [a ws']. apply req_refl.
Qed.
Lemma smap_smap {A B C} (f : A -> B) (g : B -> C) (m : sampler A) :
  seq (smap g (smap f m)) (smap (fun a => g (f a)) m).
Proof.
  intros ws. unfold smap. eapply req_trans; [apply rmap_rmap|]. apply rmap_ext. intros [a r]. reflexivity.
Qed.

Lemma smap_evals {A B} (f : A -> B) (m : sampler A) ws b rest :
  evals (smap f m ws) (b, rest) <-> exists a, evals (m ws) (a, rest) /\ b = f a.
Proof.
  unfold smap. rewrite rmap_evals. split.
  - intros [[a r] [E H]]. injection H as -> ->. exists a. split; [exact E|reflexivity].
  - intros [a [E ->]]. exists (a, rest). split; [exact E|reflexivity].
Qed.

(* loc + scale * z: Normal::from_zscore, Cauchy, Frechet *)
Definition affine (loc scale : Z * Z) (z : expr) : expr := dyx loc +. dyx scale *. z.
(* loc - scale * z: Gumbel *)
Definition affine_sub (loc scale : Z * Z) (z : expr) : expr := dyx loc -. dyx scale *. z.
(* z * scale + loc: SkewNormal *)
Definition affine_r (loc scale : Z * Z) (z : expr) : expr := z *. dyx scale +. dyx loc.
(* scale * z: Pareto, Weibull *)
Definition scale_l (scale : Z * Z) (z : expr) : expr := dyx scale *. z.
(* Normal::from_zscore and LogNormal::from_zscore (normal.rs:224, 353) *)
Definition normal_from_zscore (mean sd : Z * Z) (z : expr) : expr := dyx mean +. dyx sd *. z.
Definition lognormal_from_zscore (mu sigma : Z * Z) (z : expr) : expr := eexp (normal_from_zscore mu sigma z).
(* Exp: z * (1/lambda), lambda_inverse precomputed *)
Definition exp_scale (lambda : Z * Z) (z : expr) : expr := z *. (one /. dyx lambda).

(* standard samplers (the code without its location/scale) *)
Definition cauchy_std (t : fty) : sampler expr := x <- draw_std t ;; sret (etan (Pi *. x)).
Definition gumbel_std (t : fty) : sampler expr := x <- draw_oc t ;; sret (eln (eneg (eln x))).
Definition frechet_std (t : fty) (shape : Z * Z) : sampler expr :=
  x <- draw_oc t ;; sret (epow (eneg (eln x)) (eneg (one /. dyx shape))).
Definition pareto_std (t : fty) (shape : Z * Z) : sampler expr :=
  u <- draw_oc t ;; sret (epow u (num (-1) /. dyx shape)).
Definition weibull_std (t : fty) (shape : Z * Z) : sampler expr :=
  x <- draw_oc t ;; sret (epow (eneg (eln x)) (one /. dyx shape)).
Definition skew_normal_std (t : fty) (shape : Z * Z) : sampler expr :=
  u1 <- std_normal t ;;
  if dy_eqb shape (0, 0) then sret u1 else
  u2 <- std_normal t ;;
  gt <- sask CGt u1 u2 ;;
  let '(u, v) := if gt then (u1, u2) else (u2, u1) in
  if dy_eqb shape (-1, 0) then sret v
  else if dy_eqb shape (1, 0) then sret u
  else
    let sh := dyx shape in
    sret (((one +. sh) *. u +. (one -. sh) *. v) /. (esqrt (one +. sh *. sh) *. esqrt (num 2))).
(* Gamma without its scale: Exp1 (shape = 1), a * u^(1/shape) * d (shape < 1), the
   Marsaglia-Tsang variate v (shape > 1; the code multiplies it by the precomputed d * scale) *)
Definition gamma_core (t : fty) (shape : Z * Z) : sampler expr :=
  if dy_eqb shape (1, 0) then exp1 t
  else if dy_ltb shape (1, 0) then
    let '(c, d) := gamma_large_consts (dyx shape +. one) in
    u <- draw_open t ;;
    a <- gamma_unscaled 64 t c d ;;
    sret (a *. epow u (one /. dyx shape) *. d)
  else
    let '(c, d) := gamma_large_consts (dyx shape) in gamma_unscaled 64 t c d.
Definition gamma_scale (shape scale : Z * Z) : expr -> expr :=
  if dy_eqb shape (1, 0) then fun z => z *. (one /. (one /. dyx scale))
  else if dy_ltb shape (1, 0) then fun x => x *. dyx scale
  else fun v => v *. ((dyx shape -. rat 1 3) *. dyx scale).

Lemma std_samplers_spec t shape :
  cauchy_std t = sbind (draw_std t) (fun x => sret (etan (Bin Mul Pi x))) /\
  gumbel_std t = sbind (draw_oc t) (fun x => sret (eln (eneg (eln x)))) /\
  frechet_std t shape = sbind (draw_oc t) (fun x => sret (epow (eneg (eln x)) (eneg (Bin Div one (dyx shape))))) /\
  pareto_std t shape = sbind (draw_oc t) (fun u => sret (epow u (Bin Div (num (-1)) (dyx shape)))) /\
  weibull_std t shape = sbind (draw_oc t) (fun x => sret (epow (eneg (eln x)) (Bin Div one (dyx shape)))).
Proof. repeat split. Qed.
Lemma gamma_scale_spec shape scale v :
  gamma_scale shape scale v =
  if dy_eqb shape (1, 0)%Z then Bin Mul v (Bin Div one (Bin Div one (dyx scale)))
  else if dy_ltb shape (1, 0)%Z then Bin Mul v (dyx scale)
  else Bin Mul v (Bin Mul (Bin Sub (dyx shape) (rat 1 3)) (dyx scale)).
Proof. unfold gamma_scale. destruct (dy_eqb shape (1, 0)%Z); [|destruct (dy_ltb shape (1, 0)%Z)]; reflexivity. Qed.

Theorem normal_smap_req t mean sd : seq (normal t mean sd) (smap (normal_from_zscore mean sd) (std_normal t)).
Proof. apply (sbind_sret_smap (normal_from_zscore mean sd)). Qed.
Theorem lognormal_smap_req t mu sigma :
  seq (lognormal t mu sigma) (smap (lognormal_from_zscore mu sigma) (std_normal t)).
Proof. apply (sbind_sret_smap (lognormal_from_zscore mu sigma)). Qed.
(* LogNormal is exp of the Normal with the same parameters, on the same stream *)
Theorem lognormal_normal_req t mu sigma : seq (lognormal t mu sigma) (smap eexp (normal t mu sigma)).
Proof.
  eapply seq_trans; [apply lognormal_smap_req|]. apply seq_sym.
  eapply seq_trans; [|apply (smap_smap (normal_from_zscore mu sigma) eexp)].
  intros ws. unfold smap. apply rmap_cong. apply normal_smap_req.
Qed.
Theorem exp_lambda_smap_req t lambda : seq (exp_lambda t lambda) (smap (exp_scale lambda) (exp1 t)).
Proof. apply (sbind_sret_smap (exp_scale lambda)). Qed.

Theorem skew_normal_smap_req t loc scale shape :
  seq (skew_normal t loc scale shape) (smap (affine_r loc scale) (skew_normal_std t shape)).
Proof.
  unfold skew_normal, skew_normal_std.
  eapply seq_trans; [|apply seq_sym, smap_sbind]. apply sbind_cong. intros u1.
  destruct (dy_eqb shape (0, 0)); [apply seq_refl|].
  eapply seq_trans; [|apply seq_sym, smap_sbind]. apply sbind_cong. intros u2 ws.
  rewrite smap_sask. cbn [sbind sask bind]. apply RqAsk. intros gt.
  destruct gt; destruct (dy_eqb shape (-1, 0)); try apply req_refl;
    destruct (dy_eqb shape (1, 0)); apply req_refl.
Qed.

Theorem gamma_smap_req t shape scale :
  seq (gamma t shape scale) (smap (gamma_scale shape scale) (gamma_core t shape)).
Proof.
  unfold gamma, gamma_core, gamma_scale, gamma_large_consts.
  destruct (dy_eqb shape (1, 0)).
  - apply (sbind_sret_smap (fun z => z *. (one /. (one /. dyx scale)))).
  - destruct (dy_ltb shape (1, 0)).
    + eapply seq_trans; [|apply seq_sym, smap_sbind]. apply sbind_cong. intros u.
      eapply seq_trans; [|apply seq_sym, smap_sbind]. apply sbind_cong. intros a.
      apply seq_refl.
    + apply (sbind_sret_smap (fun v => v *. ((dyx shape -. rat 1 3) *. dyx scale))).
Qed.

(* the same as syntactic equalities of trees (functional extensionality) *)
Theorem normal_smap t mean sd ws :
  normal t mean sd ws = smap (fun z => dyx mean +. dyx sd *. z) (std_normal t) ws.
Proof. apply req_eq, normal_smap_req. Qed.
Theorem lognormal_smap t mu sigma ws :
  lognormal t mu sigma ws = smap (fun z => eexp (dyx mu +. dyx sigma *. z)) (std_normal t) ws.
Proof. apply req_eq, lognormal_smap_req. Qed.
Theorem lognormal_normal t mu sigma ws : lognormal t mu sigma ws = smap eexp (normal t mu sigma) ws.
Proof. apply req_eq, lognormal_normal_req. Qed.
Theorem exp_lambda_smap t lambda ws :
  exp_lambda t lambda ws = smap (fun z => z *. (one /. dyx lambda)) (exp1 t) ws.
Proof. apply req_eq, exp_lambda_smap_req. Qed.
Theorem skew_normal_smap t loc scale shape ws :
  skew_normal t loc scale shape ws = smap (fun x => x *. dyx scale +. dyx loc) (skew_normal_std t shape) ws.
Proof. apply req_eq, skew_normal_smap_req. Qed.
Theorem gamma_smap t shape scale ws :
  gamma t shape scale ws = smap (gamma_scale shape scale) (gamma_core t shape) ws.
Proof. apply req_eq, gamma_smap_req. Qed.

(* the single-draw samplers: by computation, no axiom *)
Theorem cauchy_smap t median scale ws :
  cauchy t median scale ws = smap (fun c => dyx median +. dyx scale *. c) (cauchy_std t) ws.
Proof. destruct ws; reflexivity. Qed.
Theorem gumbel_smap t loc scale ws :
  gumbel t loc scale ws = smap (fun g => dyx loc -. dyx scale *. g) (gumbel_std t) ws.
Proof. destruct ws; reflexivity. Qed.
Theorem frechet_smap t loc scale shape ws :
  frechet t loc scale shape ws = smap (fun g => dyx loc +. dyx scale *. g) (frechet_std t shape) ws.
Proof. destruct ws; reflexivity. Qed.
Theorem pareto_smap t scale shape ws :
  pareto t scale shape ws = smap (fun h => dyx scale *. h) (pareto_std t shape) ws.
Proof. destruct ws; reflexivity. Qed.
Theorem weibull_smap t scale shape ws :
  weibull t scale shape ws = smap (fun h => dyx scale *. h) (weibull_std t shape) ws.
Proof. destruct ws; reflexivity. Qed.

Local Open Scope R_scope.

(* If the parameterised sampler m1 is the standard sampler m2 with the expression map f on its leaves,
   and f denotes the real function g (f z has a real value exactly when z has, and then it is g of it),
   then: m1 yields the real y leaving the words `rest`  iff  m2 yields some real x leaving the same
   words `rest` and y = g x.                                                                           *)
Lemma smap_sem (f : expr -> expr) (g : R -> R) (m1 m2 : sampler expr) :
  seq m1 (smap f m2) ->
  (forall z, evalX (f z) = Xlift g (evalX z)) ->
  forall ws rest y,
    (exists e, evals (m1 ws) (e, rest) /\ evalX e = Xreal y) <->
    (exists z x, evals (m2 ws) (z, rest) /\ evalX z = Xreal x /\ y = g x).
Proof.
  intros H Hf ws rest y.
  assert (S : forall e, evals (m1 ws) (e, rest) <-> exists z, evals (m2 ws) (z, rest) /\ e = f z).
  { intros e. rewrite (req_evals_iff _ _ _ (H ws)). apply smap_evals. }
  split.
  - intros [e [E V]]. apply S in E. destruct E as [z [E ->]]. rewrite Hf in V.
    destruct (evalX z) as [|x] eqn:Hx; [discriminate|]. injection V as <-. exists z, x. auto.
  - intros [z [x [E [Hx ->]]]]. exists (f z). split; [apply S; eauto|now rewrite Hf, Hx].
Qed.

(* the leaf maps denote the affine maps *)
Lemma affine_eval loc scale z :
  evalX (affine loc scale z) = Xlift (fun x => dyR loc + dyR scale * x) (evalX z).
Proof. unfold affine. cbn [evalX xbin]. rewrite !dyx_eval. now destruct (evalX z). Qed.
Lemma lognormal_from_zscore_eval mu sigma z :
  evalX (lognormal_from_zscore mu sigma z) = Xlift (fun x => exp (dyR mu + dyR sigma * x)) (evalX z).
Proof.
  unfold lognormal_from_zscore. cbn [eexp evalX xun]. fold (affine mu sigma z).
  rewrite affine_eval. now destruct (evalX z).
Qed.
Lemma affine_sub_eval loc scale z :
  evalX (affine_sub loc scale z) = Xlift (fun x => dyR loc - dyR scale * x) (evalX z).
Proof. unfold affine_sub. cbn [evalX xbin]. rewrite !dyx_eval. now destruct (evalX z). Qed.
Lemma affine_r_eval loc scale z :
  evalX (affine_r loc scale z) = Xlift (fun x => x * dyR scale + dyR loc) (evalX z).
Proof. unfold affine_r. cbn [evalX xbin]. rewrite !dyx_eval. now destruct (evalX z). Qed.
Lemma scale_l_eval scale z : evalX (scale_l scale z) = Xlift (Rmult (dyR scale)) (evalX z).
Proof. unfold scale_l. cbn [evalX xbin]. rewrite !dyx_eval. now destruct (evalX z). Qed.
Lemma exp_scale_eval lambda z : dyR lambda <> 0 ->
  evalX (exp_scale lambda z) = Xlift (fun x => x * (1 / dyR lambda)) (evalX z).
Proof.
  intros H. unfold exp_scale. cbn [evalX xbin]. rewrite dyx_eval, one_eval, Xdiv_nz by exact H.
  now destruct (evalX z).
Qed.

(* the real factor by which Gamma's core variate is multiplied, besides the scale *)
Definition gamma_fac (shape : Z * Z) : R :=
  if dy_eqb shape (1, 0)%Z then 1 else if dy_ltb shape (1, 0)%Z then 1 else dyR shape - 1 / 3.
Lemma gamma_fac_spec shape :
  gamma_fac shape = if dy_eqb shape (1, 0)%Z then 1 else if dy_ltb shape (1, 0)%Z then 1 else dyR shape - 1 / 3.
Proof. reflexivity. Qed.
Lemma gamma_scale_eval shape scale z : dyR scale <> 0 ->
  evalX (gamma_scale shape scale z) = Xlift (fun x => x * (gamma_fac shape * dyR scale)) (evalX z).
Proof.
  intros H. unfold gamma_scale, gamma_fac.
  destruct (dy_eqb shape (1, 0)%Z); [|destruct (dy_ltb shape (1, 0)%Z)]; cbn [evalX xbin rat];
    rewrite ?dyx_eval, ?num_eval, ?one_eval.
  - assert (1 / dyR scale <> 0) by (apply Rmult_integral_contrapositive_currified; [lra|now apply Rinv_neq_0_compat]).
    rewrite !Xdiv_nz by assumption. destruct (evalX z); [reflexivity|]. cbn. f_equal. now field.
  - destruct (evalX z); [reflexivity|]. cbn. f_equal. ring.
  - rewrite Xdiv_nz by lra. now destruct (evalX z).
Qed.

Section Semantic.
Variables (t : fty) (ws rest : list Z) (y : R).

Theorem normal_affine mean sd :
  (exists e, evals (normal t mean sd ws) (e, rest) /\ evalX e = Xreal y) <->
  (exists z x, evals (std_normal t ws) (z, rest) /\ evalX z = Xreal x /\ y = dyR mean + dyR sd * x).
Proof. apply (smap_sem _ _ _ _ (normal_smap_req t mean sd) (affine_eval mean sd)). Qed.
Theorem lognormal_affine mu sigma :
  (exists e, evals (lognormal t mu sigma ws) (e, rest) /\ evalX e = Xreal y) <->
  (exists z x, evals (std_normal t ws) (z, rest) /\ evalX z = Xreal x /\ y = exp (dyR mu + dyR sigma * x)).
Proof. apply (smap_sem _ _ _ _ (lognormal_smap_req t mu sigma) (lognormal_from_zscore_eval mu sigma)). Qed.
(* scale = 1/lambda *)
Theorem exp_lambda_scale lambda : dyR lambda <> 0 ->
  (exists e, evals (exp_lambda t lambda ws) (e, rest) /\ evalX e = Xreal y) <->
  (exists z x, evals (exp1 t ws) (z, rest) /\ evalX z = Xreal x /\ y = x * (1 / dyR lambda)).
Proof.
  intros L. apply (smap_sem _ _ _ _ (exp_lambda_smap_req t lambda) (fun z => exp_scale_eval lambda z L)).
Qed.
Theorem cauchy_affine median scale :
  (exists e, evals (cauchy t median scale ws) (e, rest) /\ evalX e = Xreal y) <->
  (exists z x, evals (cauchy_std t ws) (z, rest) /\ evalX z = Xreal x /\ y = dyR median + dyR scale * x).
Proof. apply (smap_sem _ _ _ _ (fun l => eq_req _ _ (cauchy_smap t median scale l)) (affine_eval median scale)). Qed.
Theorem gumbel_affine loc scale :
  (exists e, evals (gumbel t loc scale ws) (e, rest) /\ evalX e = Xreal y) <->
  (exists z x, evals (gumbel_std t ws) (z, rest) /\ evalX z = Xreal x /\ y = dyR loc - dyR scale * x).
Proof. apply (smap_sem _ _ _ _ (fun l => eq_req _ _ (gumbel_smap t loc scale l)) (affine_sub_eval loc scale)). Qed.
Theorem frechet_affine loc scale shape :
  (exists e, evals (frechet t loc scale shape ws) (e, rest) /\ evalX e = Xreal y) <->
  (exists z x, evals (frechet_std t shape ws) (z, rest) /\ evalX z = Xreal x /\ y = dyR loc + dyR scale * x).
Proof. apply (smap_sem _ _ _ _ (fun l => eq_req _ _ (frechet_smap t loc scale shape l)) (affine_eval loc scale)). Qed.
Theorem pareto_scale scale shape :
  (exists e, evals (pareto t scale shape ws) (e, rest) /\ evalX e = Xreal y) <->
  (exists z x, evals (pareto_std t shape ws) (z, rest) /\ evalX z = Xreal x /\ y = dyR scale * x).
Proof. apply (smap_sem _ _ _ _ (fun l => eq_req _ _ (pareto_smap t scale shape l)) (scale_l_eval scale)). Qed.
Theorem weibull_scale scale shape :
  (exists e, evals (weibull t scale shape ws) (e, rest) /\ evalX e = Xreal y) <->
  (exists z x, evals (weibull_std t shape ws) (z, rest) /\ evalX z = Xreal x /\ y = dyR scale * x).
Proof. apply (smap_sem _ _ _ _ (fun l => eq_req _ _ (weibull_smap t scale shape l)) (scale_l_eval scale)). Qed.
Theorem skew_normal_affine loc scale shape :
  (exists e, evals (skew_normal t loc scale shape ws) (e, rest) /\ evalX e = Xreal y) <->
  (exists z x, evals (skew_normal_std t shape ws) (z, rest) /\ evalX z = Xreal x /\ y = x * dyR scale + dyR loc).
Proof. apply (smap_sem _ _ _ _ (skew_normal_smap_req t loc scale shape) (affine_r_eval loc scale)). Qed.
(* all three representations: result = core * (factor depending on the shape only) * scale *)
Theorem gamma_scale_sem shape scale : dyR scale <> 0 ->
  (exists e, evals (gamma t shape scale ws) (e, rest) /\ evalX e = Xreal y) <->
  (exists z x, evals (gamma_core t shape ws) (z, rest) /\ evalX z = Xreal x /\
               y = x * (gamma_fac shape * dyR scale)).
Proof.
  intros S. apply (smap_sem _ _ _ _ (gamma_smap_req t shape scale) (fun z => gamma_scale_eval shape scale z S)).
Qed.
End Semantic.

(* Normal::from_zscore and LogNormal::from_zscore are these expressions with these values *)
Lemma normal_from_zscore_xdy mean sd z :
  evalX (normal_from_zscore mean sd z) =
  Xadd (xdy (fst mean) (snd mean)) (Xmul (xdy (fst sd) (snd sd)) (evalX z)).
Proof. reflexivity. Qed.
Lemma normal_from_zscore_spec mean sd z :
  normal_from_zscore mean sd z = Bin Add (dyx mean) (Bin Mul (dyx sd) z) /\
  evalX (normal_from_zscore mean sd z) = Xadd (xdy (fst mean) (snd mean)) (Xmul (xdy (fst sd) (snd sd)) (evalX z)) /\
  evalX (normal_from_zscore mean sd z) = Xadd (Xreal (dyR mean)) (Xmul (Xreal (dyR sd)) (evalX z)).
Proof. repeat split. unfold normal_from_zscore. cbn [evalX xbin]. now rewrite !dyx_eval. Qed.
Lemma lognormal_from_zscore_spec mu sigma z :
  lognormal_from_zscore mu sigma z = Un Exp (Bin Add (dyx mu) (Bin Mul (dyx sigma) z)) /\
  evalX (lognormal_from_zscore mu sigma z) = Xexp (Xadd (Xreal (dyR mu)) (Xmul (Xreal (dyR sigma)) (evalX z))).
Proof. split; [reflexivity|]. unfold lognormal_from_zscore, normal_from_zscore. cbn [eexp evalX xun xbin]. now rewrite !dyx_eval. Qed.

(* simulations: the same tree shape, the two sides of every decision have the same exact value *)
Definition xeq (e1 e2 : expr) : Prop := evalX e1 = evalX e2.

Inductive rsim {A} (R : A -> A -> Prop) : run A -> run A -> Prop :=
| SRet a a' : R a a' -> rsim R (Ret a) (Ret a')
| SAsk c a b k a' b' k' : xeq a a' -> xeq b b' -> (forall t, rsim R (k t) (k' t)) ->
    rsim R (Ask c a b k) (Ask c a' b' k')
| SFloor e k e' k' : xeq e e' -> (forall z, rsim R (k z) (k' z)) -> rsim R (AskFloor e k) (AskFloor e' k')
| SFail c : rsim R (Fail c) (Fail c).

Lemma rsim_evals {A} (R : A -> A -> Prop) r r' v :
  rsim R r r' -> evals r v -> exists v', evals r' v' /\ R v v'.
Proof.
  intros H. revert v. induction H as [a a' Ha|c a b k a' b' k' Ea Eb Hk IH|e k e' k' Ee Hk IH|c]; intros v E;
    inversion E; subst.
  - exists a'. split; [constructor|exact Ha].
  - destruct (IH _ _ H6) as [v' [E' Rv]]. exists v'. split; [|exact Rv].
    eapply EvAsk; [rewrite <- Ea; eassumption|rewrite <- Eb; eassumption|exact E'].
  - destruct (IH _ _ H3) as [v' [E' Rv]]. exists v'. split; [|exact Rv].
    eapply EvFloor; [rewrite <- Ee; eassumption|exact E'].
Qed.
Lemma rsim_bind {A B} (R : A -> A -> Prop) (Q : B -> B -> Prop) r r' (k k' : A -> run B) :
  rsim R r r' -> (forall a a', R a a' -> rsim Q (k a) (k' a')) -> rsim Q (bind r k) (bind r' k').
Proof. intros H Hk. induction H; cbn; try constructor; auto. Qed.
Lemma rsim_refl {A} (r : run A) : rsim eq r r.
Proof. induction r; constructor; auto; reflexivity. Qed.

(* related leaves: the same remaining words; a real value y on the left becomes g y on the right *)
Definition leaf_map (g : R -> R) (p p' : expr * list Z) : Prop :=
  snd p = snd p' /\ forall y, evalX (fst p) = Xreal y -> evalX (fst p') = Xreal (g y).

Lemma rsim_sem g (r r' : run (expr * list Z)) rest y :
  rsim (leaf_map g) r r' ->
  (exists e, evals r (e, rest) /\ evalX e = Xreal y) ->
  (exists e', evals r' (e', rest) /\ evalX e' = Xreal (g y)).
Proof.
  intros H [e [E V]]. destruct (rsim_evals _ _ _ _ H E) as [[e' rest'] [E' [Hr Hy]]].
  cbn [fst snd] in Hr, Hy. subst rest'. exists e'. split; [exact E'|apply Hy, V].
Qed.

(* InverseGaussian: (mu, lambda) -> (c mu, c lambda) scales the sample by c *)
(* The expressions inside the decision  u <= mu / (mu + x)  change, but x is scaled by c like mu, so the
   quotient keeps its value (also when it has none).                                                    *)
Definition ig_x (mu l v : expr) : expr :=
  mu +. mu /. (num 2 *. l) *. (mu *. v *. v -. esqrt (num 4 *. l *. (mu *. v *. v) +. mu *. v *. v *. (mu *. v *. v))).
Definition ig_rad (m lam rv : R) : R := 4 * lam * (m * rv * rv) + m * rv * rv * (m * rv * rv).
Definition ig_xr (m lam rv : R) : R := m + m / (2 * lam) * (m * rv * rv - sqrt (ig_rad m lam rv)).

Lemma ig_x_eval mu l v m lam : evalX mu = Xreal m -> evalX l = Xreal lam ->
  evalX (ig_x mu l v) = Xbind (fun rv => if is_zero (2 * lam) then Xnan else Xreal (ig_xr m lam rv)) (evalX v).
Proof.
  intros Hm Hl. unfold ig_x. cbn [evalX xbin xun esqrt]. rewrite Hm, Hl, !num_eval.
  cbn [Xlift2 Xbind2]. unfold Xdiv'. now destruct (is_zero (2 * lam)), (evalX v).
Qed.
Lemma ig_xr_scale c m lam rv : 0 < c -> lam <> 0 -> ig_xr (c * m) (c * lam) rv = c * ig_xr m lam rv.
Proof.
  intros Hc L. unfold ig_xr.
  rewrite (sqrt_scale c (ig_rad m lam rv)) by (assumption || (unfold ig_rad; ring)). field. lra.
Qed.

Lemma is_zero_scale c z : c <> 0 -> is_zero (c * z) = is_zero z.
Proof.
  intros Hc. destruct (is_zero_spec z) as [->|Z]; [rewrite Rmult_0_r; apply is_zero_0|].
  now apply is_zero_false, Rmult_integral_contrapositive_currified.
Qed.

Section IG.
Variables (t : fty) (mu l mu' l' : expr) (m lam c : R).
Hypothesis Hc : 0 < c.
Hypothesis Hmu : evalX mu = Xreal m.
Hypothesis Hl : evalX l = Xreal lam.
Hypothesis Hmu' : evalX mu' = Xreal (c * m).
Hypothesis Hl' : evalX l' = Xreal (c * lam).

Lemma ig_x_scale v : evalX (ig_x mu' l' v) = Xmul (Xreal c) (evalX (ig_x mu l v)).
Proof.
  rewrite (ig_x_eval mu' l' v _ _ Hmu' Hl'), (ig_x_eval mu l v _ _ Hmu Hl).
  destruct (evalX v) as [|rv]; [reflexivity|]. cbn [Xbind].
  replace (2 * (c * lam)) with (c * (2 * lam)) by ring. rewrite is_zero_scale by lra.
  destruct (is_zero_spec (2 * lam)); [reflexivity|]. cbn. f_equal. apply ig_xr_scale; lra.
Qed.

Lemma ig_sim ws :
  rsim (leaf_map (Rmult c)) (inverse_gaussian_e t mu l ws) (inverse_gaussian_e t mu' l' ws).
Proof.
  unfold inverse_gaussian_e, sbind. eapply rsim_bind; [apply rsim_refl|]. intros [v ws1] _ <-.
  destruct ws1 as [|w ws2]; [constructor|]. cbn [draw_std sbind bind next_word sret sask].
  fold (ig_x mu l v) (ig_x mu' l' v).
  pose proof (ig_x_scale v) as X. constructor; [reflexivity| |intros [|]; cbn [sret]; constructor; (split; [reflexivity|])];
    unfold xeq; cbn [fst evalX xbin]; rewrite ?X, ?Hmu, ?Hmu';
    destruct (evalX (ig_x mu l v)) as [|xx]; try reflexivity; try discriminate; cbn [Xlift2 Xbind2]; unfold Xdiv'.
  - rewrite <- Rmult_plus_distr_l, is_zero_scale by lra.
    destruct (is_zero_spec (m + xx)); [reflexivity|]. f_equal. field. lra.
  - intros y E. injection E as <-. reflexivity.
  - intros y. rewrite is_zero_scale by lra. destruct (is_zero_spec xx); [discriminate|].
    intros E. injection E as <-. f_equal. field. lra.
Qed.

Lemma ig_scale_e ws rest y :
  (exists e, evals (inverse_gaussian_e t mu l ws) (e, rest) /\ evalX e = Xreal y) ->
  (exists e', evals (inverse_gaussian_e t mu' l' ws) (e', rest) /\ evalX e' = Xreal (c * y)).
Proof. apply (rsim_sem (Rmult c)), ig_sim. Qed.
End IG.

(* dyadic parameters: c = mc * 2^ec, (c mu, c lambda) are again dyadic *)
Definition dy_mul (c q : Z * Z) : Z * Z := (fst c * fst q, snd c + snd q)%Z.
Lemma dyR_mul c q : dyR (dy_mul c q) = dyR c * dyR q.
Proof. unfold dyR, dy_mul. cbn [fst snd]. rewrite mult_IZR, powerRZ_add by lra. ring. Qed.

Theorem inverse_gaussian_scale t c mean shape ws rest y : 0 < dyR c ->
  (exists e, evals (inverse_gaussian t mean shape ws) (e, rest) /\ evalX e = Xreal y) <->
  (exists e', evals (inverse_gaussian t (dy_mul c mean) (dy_mul c shape) ws) (e', rest) /\ evalX e' = Xreal (dyR c * y)).
Proof.
  intros Hc. unfold inverse_gaussian. split.
  - apply (ig_scale_e t _ _ _ _ (dyR mean) (dyR shape) (dyR c) Hc); rewrite ?dyx_eval, ?dyR_mul; reflexivity.
  - (* back by 1 / c *)
    intros H. replace y with (/ dyR c * (dyR c * y)) by (field; lra). revert H.
    apply (ig_scale_e t _ _ _ _ (dyR c * dyR mean) (dyR c * dyR shape) (/ dyR c));
      rewrite ?dyx_eval, ?dyR_mul; [now apply Rinv_0_lt_compat|reflexivity|reflexivity| |]; f_equal; field; lra.
Qed.

(* Pert: x -> a + b x applied to (min, max, mode), b > 0 *)
(* The Beta parameters v = 1 + shape (mode - min)/(max - min) and w are unchanged as real numbers but are
   different expressions, so every decision of the Beta sampler compares the same two real numbers.    *)

(* leaves: expressions of equal value, the same remaining words *)
Definition leq (p p' : expr * list Z) : Prop := xeq (fst p) (fst p') /\ snd p = snd p'.

(* xeq is a congruence for the expression constructors *)
Lemma xeq_un o a a' : xeq a a' -> xeq (Un o a) (Un o a').
Proof. unfold xeq. cbn [evalX]. now intros ->. Qed.
Lemma xeq_bin o a a' b b' : xeq a a' -> xeq b b' -> xeq (Bin o a b) (Bin o a' b').
Proof. unfold xeq. cbn [evalX]. now intros -> ->. Qed.
Lemma xeq_refl a : xeq a a.
Proof. reflexivity. Qed.
Create HintDb xeq discriminated.
#[local] Hint Resolve xeq_un xeq_bin xeq_refl : xeq.

Ltac xeq_tac := unfold eexp, eln, esqrt, eabs, epow, etan, eneg, efloor; auto 20 with xeq nocore.
Ltac simstep := cbn [beta_bb beta_bc sbind bind draw_open draw_std draw_oc next_word sret sask sfail negb fst snd].
Ltac sim_leaf := constructor; split; [cbn [fst]; xeq_tac|reflexivity].

Lemma beta_bb_sim fuel t a b al be ga a' b' al' be' ga' ws :
  xeq a a' -> xeq b b' -> xeq al al' -> xeq be be' -> xeq ga ga' ->
  rsim leq (beta_bb fuel t a b al be ga ws) (beta_bb fuel t a' b' al' be' ga' ws).
Proof.
  intros Ha Hb Hal Hbe Hga. revert ws. induction fuel as [|f IH]; intros ws; [constructor|].
  destruct ws as [|w1 [|w2 ws]]; [constructor|constructor|].
  simstep. constructor; [xeq_tac|xeq_tac|]. intros [|]; simstep; [sim_leaf|].
  constructor; [xeq_tac|xeq_tac|]. intros [|]; simstep; [sim_leaf|].
  constructor; [xeq_tac|xeq_tac|]. intros [|]; simstep; [apply IH|sim_leaf].
Qed.
Lemma beta_bc_sim fuel t a b al be k1 k2 a' b' al' be' k1' k2' ws :
  xeq a a' -> xeq b b' -> xeq al al' -> xeq be be' -> xeq k1 k1' -> xeq k2 k2' ->
  rsim leq (beta_bc fuel t a b al be k1 k2 ws) (beta_bc fuel t a' b' al' be' k1' k2' ws).
Proof.
  intros Ha Hb Hal Hbe Hk1 Hk2. revert ws. induction fuel as [|f IH]; intros ws; [constructor|].
  destruct ws as [|w1 [|w2 ws]]; [constructor|constructor|].
  simstep. constructor; [xeq_tac|xeq_tac|]. intros [|]; simstep.
  - constructor; [xeq_tac|xeq_tac|]. intros [|]; simstep; [apply IH|].
    constructor; [xeq_tac|xeq_tac|]. intros [|]; simstep; [apply IH|sim_leaf].
  - constructor; [xeq_tac|xeq_tac|]. intros [|]; simstep; [sim_leaf|].
    constructor; [xeq_tac|xeq_tac|]. intros [|]; simstep; [apply IH|].
    constructor; [xeq_tac|xeq_tac|]. intros [|]; simstep; [apply IH|sim_leaf].
Qed.
Lemma beta_e_sim t lt gt1 a0 b0 a0' b0' ws :
  xeq a0 a0' -> xeq b0 b0' -> rsim leq (beta_e t lt gt1 a0 b0 ws) (beta_e t lt gt1 a0' b0' ws).
Proof.
  intros Ha Hb. unfold beta_e. destruct lt, gt1; cbn [negb]; unfold sbind.
  all: eapply rsim_bind; [first [apply beta_bb_sim|apply beta_bc_sim]; xeq_tac|];
    intros [w ws1] [w' ws1'] [Hw Hws]; cbn [fst snd] in Hw, Hws; subst ws1'; cbn [sret]; sim_leaf.
Qed.

Section Pert.
Variables (mn mx mode mn' mx' mode' shape : Z * Z) (a b : R).
Hypothesis Hb : 0 < b.
Hypothesis Emn : dyR mn' = a + b * dyR mn.
Hypothesis Emx : dyR mx' = a + b * dyR mx.
Hypothesis Emode : dyR mode' = a + b * dyR mode.

Lemma pert_param_xeq (P Q P' Q' : Z * Z) :
  dyR P' = a + b * dyR P -> dyR Q' = a + b * dyR Q ->
  xeq (one +. dyx shape *. (dyx P -. dyx Q) /. (dyx mx -. dyx mn))
      (one +. dyx shape *. (dyx P' -. dyx Q') /. (dyx mx' -. dyx mn')).
Proof.
  intros EP EQ. unfold xeq. cbn [evalX xbin]. rewrite !dyx_eval, one_eval. cbn [Xsub Xmul Xdiv Xbind2].
  unfold Xdiv'. rewrite EP, EQ, Emx, Emn.
  replace (a + b * dyR mx - (a + b * dyR mn)) with (b * (dyR mx - dyR mn)) by ring.
  rewrite is_zero_scale by lra. destruct (is_zero_spec (dyR mx - dyR mn)); [reflexivity|].
  cbn [Xadd]. f_equal. field. split; [assumption|lra].
Qed.

Lemma pert_sim t ws :
  rsim (leaf_map (fun y => a + b * y)) (pert t mn mx mode shape ws) (pert t mn' mx' mode' shape ws).
Proof.
  pose proof (pert_param_xeq mode mn mode' mn' Emode Emn) as Hv.
  pose proof (pert_param_xeq mx mode mx' mode' Emx Emode) as Hw.
  unfold pert. cbn [sbind sask bind]. constructor; [exact Hv|exact Hw|]. intros lt.
  constructor; [destruct lt; assumption|reflexivity|]. intros gt1.
  eapply rsim_bind; [apply beta_e_sim; assumption|].
  intros [bb ws1] [bb' ws1'] [Hbb Hws]. cbn [fst snd] in Hbb, Hws. subst ws1'. cbn [sret]. constructor.
  split; [reflexivity|]. cbn [fst]. intros y. unfold xeq in Hbb. cbn [evalX xbin]. rewrite !dyx_eval, <- Hbb.
  destruct (evalX bb) as [|rb]; [discriminate|]. cbn [Xsub Xmul Xadd]. intros H. injection H as <-.
  rewrite Emx, Emn. f_equal. ring.
Qed.

Theorem pert_affine t ws rest y :
  (exists e, evals (pert t mn mx mode shape ws) (e, rest) /\ evalX e = Xreal y) ->
  (exists e', evals (pert t mn' mx' mode' shape ws) (e', rest) /\ evalX e' = Xreal (a + b * y)).
Proof. apply (rsim_sem (fun y => a + b * y)), pert_sim. Qed.
End Pert.

(* Triangular: x -> a + b x applied to (min, max, mode), b > 0 *)
(* the decision  u (max - min) < mode - min  is scaled by b on both sides, so its outcome is the same *)
Lemma Q_tri_affine a b mn mx mode u : 0 < b ->
  Q_tri (a + b * mn) (a + b * mx) (a + b * mode) u = a + b * Q_tri mn mx mode u.
Proof.
  intros Hb. unfold Q_tri.
  destruct (Rlt_dec (u * (mx - mn)) (mode - mn)) as [L|L]; destruct (Rlt_dec _ _) as [L'|L']; try nra.
  - rewrite (sqrt_scale b (u * (mx - mn) * (mode - mn))) by (assumption || ring). ring.
  - rewrite (sqrt_scale b ((mx - mn - u * (mx - mn)) * (mx - mode))) by (assumption || ring). ring.
Qed.

Lemma triangular_sem t mn mx mode ws rest y :
  (exists e, evals (triangular t mn mx mode ws) (e, rest) /\ evalX e = Xreal y) <->
  (exists w, ws = w :: rest /\ y = Q_tri (dyR mn) (dyR mx) (dyR mode) (uR_std t w)).
Proof.
  destruct ws as [|w ws'].
  - split; [intros [e [E _]]; inversion E|intros [w [Q _]]; discriminate Q].
  - destruct (triangular_value t mn mx mode w ws') as [[e0 E0] H]. split.
    + intros [e [E V]]. destruct (H _ E) as [H1 H2]. cbn [fst snd] in H1, H2. subst rest.
      rewrite H2 in V. injection V as <-. eauto.
    + intros [w' [Q ->]]. injection Q as <- <-. exists e0. split; [exact E0|]. apply (H _ E0).
Qed.

Theorem triangular_affine t mn mx mode mn' mx' mode' a b ws rest y : 0 < b ->
  dyR mn' = a + b * dyR mn -> dyR mx' = a + b * dyR mx -> dyR mode' = a + b * dyR mode ->
  (exists e, evals (triangular t mn mx mode ws) (e, rest) /\ evalX e = Xreal y) ->
  (exists e', evals (triangular t mn' mx' mode' ws) (e', rest) /\ evalX e' = Xreal (a + b * y)).
Proof.
  intros Hb E1 E2 E3 H. apply triangular_sem in H. destruct H as [w [-> ->]].
  apply triangular_sem. exists w. split; [reflexivity|]. rewrite E1, E2, E3. symmetry. now apply Q_tri_affine.
Qed.
