(* Proofs/UnitCircleFl.v — property C12 at the IEEE level for the first component of UnitCircle::sample (unit_circle.rs:49-63),
   libm-free:   sum = x1*x1 + x2*x2;  accepted iff sum < 1 && sum > 0;  diff = x1*x1 - x2*x2;  return [diff / sum, 2*x1*x2 / sum].
   For finite x1, x2 in [-1, 1] with a positive float sum: |diff| <= sum holds between the FLOATS (rounding is monotone and odd), so the
   first component diff / sum is a finite float in [-1, 1] exactly - never NaN, never beyond +-1.  (The second component, whose
   program circle_c1_fl is only defined here, and the norm-1 clause need a rounding analysis that is not done.) *)
From Coq Require Import Reals Lra Lia.
From Flocq Require Import Core.Core IEEE754.BinarySingleNaN.
From RD Require Import Proofs.FlConst Proofs.AffineFl Proofs.TriangularFl.
Open Scope R_scope.

Section Fmt.
Variable prec emax : Z.
Context (Hp : Prec_gt_0 prec) (Hpe : Prec_lt_emax prec emax).
Notation float := (binary_float prec emax).
Notation bf := (bf prec emax).
Notation Btwo := (Btwo prec emax Hp Hpe).

Definition circle_sum_fl (x1 x2 : float) : float := Bplus mode_NE (Bmult mode_NE x1 x1) (Bmult mode_NE x2 x2).
Definition circle_diff_fl (x1 x2 : float) : float := Bminus mode_NE (Bmult mode_NE x1 x1) (Bmult mode_NE x2 x2).
Definition circle_accept_fl (sum : float) : bool := Bltb sum Bone && Bltb (B754_zero false) sum.
Definition circle_c0_fl (diff sum : float) : float := Bdiv mode_NE diff sum.
Definition circle_c1_fl (x1 x2 sum : float) : float := Bdiv mode_NE (Bmult mode_NE (Bmult mode_NE Btwo x1) x2) sum.

Lemma sq_bf (x : float) : is_finite x = true -> Rabs (B2R x) <= 1 -> bf 0 (Bmult mode_NE x x).
Proof.
  intros Fx Hx. pose proof (emax_gt_1 prec emax Hp Hpe). apply Rabs_le_inv in Hx.
  apply (bf_intro prec emax Hp Hpe _ (B2R x * B2R x)); [lia..| |exact (Bmult_value prec emax Hp Hpe x x Fx Fx)].
  simpl. split; nra.
Qed.

Section Sample.
Variables x1 x2 : float.
Hypotheses (F1 : is_finite x1 = true) (F2 : is_finite x2 = true) (H1 : Rabs (B2R x1) <= 1) (H2 : Rabs (B2R x2) <= 1).
Hypothesis Hpos : 0 < B2R (circle_sum_fl x1 x2).

Theorem circle_c0_fl_unit :
  is_finite (circle_sum_fl x1 x2) = true /\ is_finite (circle_diff_fl x1 x2) = true /\
  Rabs (B2R (circle_diff_fl x1 x2)) <= B2R (circle_sum_fl x1 x2) /\
  is_finite (circle_c0_fl (circle_diff_fl x1 x2) (circle_sum_fl x1 x2)) = true /\
  Rabs (B2R (circle_c0_fl (circle_diff_fl x1 x2) (circle_sum_fl x1 x2))) <= 1.
Proof.
  destruct (sq_bf x1 F1 H1) as [Fa Ha]. destruct (sq_bf x2 F2 H2) as [Fb Hb]. simpl (bpow radix2 0) in Ha, Hb.
  pose proof (emax_gt_1 prec emax Hp Hpe) as E1. assert (0 < emax)%Z as E0 by lia.
  assert (0 <= 1)%Z as Z1 by lia. assert (0 <= 0)%Z as Z0 by lia.
  unfold circle_sum_fl, circle_diff_fl in * . set (a := Bmult mode_NE x1 x1) in * . set (b := Bmult mode_NE x2 x2) in * .
  assert (Rabs (B2R a + B2R b) <= bpow radix2 1) as QS by (simpl; rewrite Rabs_pos_eq; lra).
  destruct (Bplus_value prec emax Hp Hpe a b Fa Fb (no_ovf prec emax Hp Hpe _ 1 Z1 E1 QS)) as [VS FS].
  assert (Rabs (B2R a - B2R b) <= bpow radix2 0) as QD by (simpl; apply Rabs_le; lra).
  destruct (Bminus_value prec emax Hp Hpe a b Fa Fb (no_ovf prec emax Hp Hpe _ 0 Z0 E0 QD)) as [VD FD].
  (* |rnd (a - b)| <= rnd (a + b): rounding is monotone and odd *)
  assert (Rabs (B2R (Bminus mode_NE a b)) <= B2R (Bplus mode_NE a b)) as LE.
  { rewrite VD, VS. apply Rabs_le. split; [rewrite <- rnd_opp|]; apply (rnd_mono prec emax Hp); lra. }
  split; [exact FS|]. split; [exact FD|]. split; [exact LE|].
  apply (abs_intro prec emax Hp Hpe _ (B2R (Bminus mode_NE a b) / B2R (Bplus mode_NE a b)) 0 Z0 E0);
    [|apply (Bdiv_value prec emax Hp Hpe _ _ FD); lra].
  apply Rabs_le_inv in LE. simpl. apply Rabs_le, Rdiv_bounds; [exact Hpos|lra].
Qed.
End Sample.
End Fmt.
