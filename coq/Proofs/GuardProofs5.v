(* Proofs/GuardProofs5.v — C04, part 5: LogNormal::from_mean_cv (libm `ln` as a parameter with an
   explicit contract; one refutation) and Hypergeometric::new (u64/i64 arithmetic with
   debug-build overflow checks; its two refutation witnesses are in GuardProofs6.v).            *)
From Coq Require Import ZArith List Bool String Reals Lra Lia.
From Flocq Require Import Core.Core IEEE754.Binary IEEE754.Bits IEEE754.BinarySingleNaN.
From RD Require Import Model.Guards Model.GuardSpec Proofs.GuardLemmas Proofs.AffineFl Proofs.GuardArith.
Import ListNotations.
Open Scope R_scope.

Section Fmt.
Variable prec emax : Z.
Context (Hp : Prec_gt_0 prec) (Hpe : Prec_lt_emax prec emax).
Notation float := (binary_float prec emax).
Notation one := (one prec emax Hp Hpe).
Notation zero := (zero prec emax).
Notation pinf := (pinf prec emax).
Notation fmul := (fmul prec emax Hp Hpe).
Notation fadd := (fadd prec emax Hp Hpe).
Notation fsqrt := (fsqrt prec emax Hp Hpe).
Notation fgt := (fgt prec emax).
Notation fge := (fge prec emax).
Notation feq := (feq prec emax).
Notation ext := (ext prec emax).

Section LogNormal.
Variable ln_f : float -> float.
(* CONTRACT on libm ln: on finite arguments >= 1 the result is finite and >= 0 (possibly -0);
   ln(+inf) = +inf. *)
Hypothesis ln_ge1 : forall a : float, is_finite a = true -> 1 <= B2R a ->
                    is_finite (ln_f a) = true /\ 0 <= B2R (ln_f a).
Hypothesis ln_inf : ln_f pinf = pinf.

Notation LN_a := (LN_a prec emax Hp Hpe).
Notation LN_known := (LN_known prec emax Hp Hpe).

Lemma LN_eq (mean cv : float) :
  LogNormal_from_mean_cv prec emax Hp Hpe ln_f mean cv =
  if feq cv zero then chain [(negb (fge mean zero), "MeanTooSmall")] else
  chain [(negb (fgt mean zero), "MeanTooSmall"); (negb (fge cv zero), "BadVariance");
         (negb (is_finite (fsqrt (ln_f (LN_a cv)))), "BadVariance")].
Proof. reflexivity. Qed.

(* `Normal::new(mu, 0).unwrap()` cannot panic *)
Theorem LogNormal_from_mean_cv_no_panic (mean cv : float) :
  LogNormal_from_mean_cv prec emax Hp Hpe ln_f mean cv <> GPanic.
Proof. rewrite LN_eq. destruct (feq cv zero); apply chain_no_panic. Qed.

Lemma sqrt_finite_nonneg (x : float) : is_finite x = true -> 0 <= B2R x -> is_finite (fsqrt x) = true.
Proof.
  intros F P. unfold Guards.fsqrt.
  destruct (Bsqrt_correct prec emax Hp Hpe mode_NE x) as (_ & Fs & _). rewrite Fs.
  destruct x as [|?| |[|] m e H]; try discriminate; try reflexivity.
  exfalso. simpl in P. assert (F2R (Float radix2 (Z.neg m) e) < 0) by (apply F2R_lt_0; simpl; lia). lra.
Qed.

Lemma LN_sigma_finite (cv : float) :
  is_finite cv = true -> LN_known cv = false -> is_finite (fsqrt (ln_f (LN_a cv))) = true.
Proof.
  intros F K. unfold GuardSpec.LN_known, v_fin in K. rewrite F in K. simpl in K.
  pose proof (M_gt_1 prec emax Hp Hpe) as HM.
  (* a = 1 + cv*cv is not NaN and >= 1; outside LN_known it is not +inf *)
  destruct (one_plus_ge1 prec emax Hp Hpe (fmul cv cv)) as (Na & La).
  { apply nn_mul; trivial. nra. }
  fold (LN_a cv) in Na, La.
  destruct (nonnan_cases _ _ _ Na) as [Fa|[Ea|Ea]].
  - rewrite ext_finite in La by trivial. destruct (ln_ge1 _ Fa La) as (Fl & Pl).
    now apply sqrt_finite_nonneg.
  - rewrite Ea in K. discriminate K.
  - rewrite Ea in La. unfold GuardSpec.ext in La. lra.
Qed.

Lemma LN_sigma_inf : is_finite (fsqrt (ln_f (LN_a (B754_infinity false)))) = false.
Proof.
  unfold GuardSpec.LN_a. replace (fmul (B754_infinity false) (B754_infinity false)) with pinf by reflexivity.
  replace (fadd one pinf) with pinf.
  - rewrite ln_inf. reflexivity.
  - destruct (one_struct prec emax Hp Hpe) as (m1 & e1 & H1 & ->). reflexivity.
Qed.

(* Sound everywhere except on LN_known (see LogNormal_from_mean_cv_refuted64/32 below). *)
Theorem LogNormal_from_mean_cv_sound_except (mean cv : float) :
  LN_known cv = false ->
  agrees (LogNormal_from_mean_cv prec emax Hp Hpe ln_f mean cv)
         (spec_LogNormal_from_mean_cv prec emax mean cv).
Proof.
  intros K. rewrite LN_eq. unfold spec_LogNormal_from_mean_cv.
  (* every test and every documented condition compares with zero: the shapes of cv and mean decide them *)
  destruct cv as [s|[|]| |[|] m e H].
  3: rewrite LN_sigma_inf. 6: rewrite LN_sigma_finite by trivial.
  all: destruct mean as [[|]|[|]| |[|] m' e' H']; cbn; auto.
Qed.
End LogNormal.

End Fmt.

(* f64: mean = 1.0, cv = 1e200 (finite, >= 0): documented Ok, real code returns Err(BadVariance)
   because cv*cv overflows, so sigma = sqrt(ln(inf)) = inf is rejected by Normal::new.          *)
Definition cv_1e200 : f64 := dec64 7598807758576447066.      (* 0x6974e718d7d7625a = 1e200 *)
Definition cv_1e20_32 : f32 := dec32 1621981420.              (* 0x60ad78ec = 1e20f32 *)

Theorem LogNormal_from_mean_cv_refuted64 :
  forall ln_f : f64 -> f64, ln_f (pinf 53 1024) = pinf 53 1024 ->
  exists mean cv : f64,
    ~ agrees (LogNormal_from_mean_cv 53 1024 Hp64 Hpe64 ln_f mean cv)
             (spec_LogNormal_from_mean_cv 53 1024 mean cv).
Proof.
  intros ln_f Hinf. exists (one 53 1024 Hp64 Hpe64), cv_1e200.
  rewrite LN_eq.
  replace (feq 53 1024 cv_1e200 (zero 53 1024)) with false by (vm_compute; reflexivity).
  replace (fgt 53 1024 (one 53 1024 Hp64 Hpe64) (zero 53 1024)) with true by (vm_compute; reflexivity).
  replace (fge 53 1024 cv_1e200 (zero 53 1024)) with true by (vm_compute; reflexivity).
  replace (LN_a 53 1024 Hp64 Hpe64 cv_1e200) with (pinf 53 1024) by (vm_compute; reflexivity).
  rewrite Hinf.
  replace (spec_LogNormal_from_mean_cv 53 1024 (one 53 1024 Hp64 Hpe64) cv_1e200) with MustOk
    by (vm_compute; reflexivity).
  simpl. tauto.
Qed.

Theorem LogNormal_from_mean_cv_refuted32 :
  forall ln_f : f32 -> f32, ln_f (pinf 24 128) = pinf 24 128 ->
  exists mean cv : f32,
    ~ agrees (LogNormal_from_mean_cv 24 128 Hp32 Hpe32 ln_f mean cv)
             (spec_LogNormal_from_mean_cv 24 128 mean cv).
Proof.
  intros ln_f Hinf. exists (one 24 128 Hp32 Hpe32), cv_1e20_32.
  rewrite LN_eq.
  replace (feq 24 128 cv_1e20_32 (zero 24 128)) with false by (vm_compute; reflexivity).
  replace (fgt 24 128 (one 24 128 Hp32 Hpe32) (zero 24 128)) with true by (vm_compute; reflexivity).
  replace (fge 24 128 cv_1e20_32 (zero 24 128)) with true by (vm_compute; reflexivity).
  replace (LN_a 24 128 Hp32 Hpe32 cv_1e20_32) with (pinf 24 128) by (vm_compute; reflexivity).
  rewrite Hinf.
  replace (spec_LogNormal_from_mean_cv 24 128 (one 24 128 Hp32 Hpe32) cv_1e20_32) with MustOk
    by (vm_compute; reflexivity).
  simpl. tauto.
Qed.

(* the UNFIXED code (no mean test in the `cv == 0` branch; finding F1) accepted mean = -1, cv = 0 *)
Theorem LogNormal_from_mean_cv_unfixed_refuted64 :
  forall ln_f : f64 -> f64,
  exists mean cv : f64,
    ~ agrees (LogNormal_from_mean_cv_gen 53 1024 Hp64 Hpe64 true ln_f mean cv)
             (spec_LogNormal_from_mean_cv 53 1024 mean cv).
Proof.
  intros ln_f. exists (dec64 13830554455654793216), (zero 53 1024).    (* -1.0, 0.0 *)
  unfold LogNormal_from_mean_cv_gen.
  replace (feq 53 1024 (zero 53 1024) (zero 53 1024)) with true by (vm_compute; reflexivity).
  replace (spec_LogNormal_from_mean_cv 53 1024 (dec64 13830554455654793216) (zero 53 1024))
    with (MustErr ["MeanTooSmall"%string]) by (vm_compute; reflexivity).
  simpl. tauto.
Qed.

Open Scope Z_scope.
Section HyperFmt.
Variable prec emax : Z.
Context (Hp : Prec_gt_0 prec) (Hpe : Prec_lt_emax prec emax).

Lemma agrees_unspec (r : gres) : r <> GPanic -> agrees r Unspecified.
Proof. destruct r; simpl; auto. Qed.

Notation fpf := (fraction_of_products_of_factorials prec emax Hp Hpe).

(* the loop starts at min_all + 1, which overflows only when all four bounds are u64::MAX *)
Lemma fpf_no_panic (debug : bool) (cap a b c d : Z) :
  d < u64_max \/ debug = false -> fpf debug cap (a, b) (c, d) <> Some None.
Proof.
  intros H. unfold fraction_of_products_of_factorials. simpl fst; simpl snd.
  destruct (Z.eqb_spec (Z.min (Z.min a b) (Z.min c d)) u64_max) as [E|E]; simpl.
  - destruct H as [H | ->]; [|simpl; destruct (_ >? cap); discriminate].
    exfalso. apply (Z.lt_irrefl u64_max). rewrite <- E at 1.
    apply Z.le_lt_trans with d; trivial. rewrite !Z.le_min_r. reflexivity.
  - destruct (_ >? cap); discriminate.
Qed.

Lemma fpf_pick_no_panic (debug : bool) (cap N k n1 n2 : Z) :
  (debug = true -> n2 - k < 18446744073709551615 /\ k - n2 < 18446744073709551615) ->
  (if k <? n2 then fpf debug cap (n2, N - k) (N, n2 - k) else fpf debug cap (n1, k) (N, k - n2))
  <> Some None.
Proof.
  intros H. destruct (k <? n2); apply fpf_no_panic; destruct debug; auto; left; now apply H.
Qed.

(* past the set-up, only the factorial loop can panic *)
Lemma hyper_tail_agrees (b : bool) (ip : option (option (binary_float prec emax)))
                        (T : binary_float prec emax -> bool) :
  ip <> Some None ->
  match (if b then match ip with
                   | None => None
                   | Some None => Some GPanic
                   | Some (Some p) => if T p then Some (GErr "PopulationTooLarge") else Some GOk
                   end
         else Some GOk) with
  | None => True
  | Some r => agrees r Unspecified
  end.
Proof. intros H. destruct b, ip as [[p|]|]; try exact I. now destruct (T p). now elim H. Qed.

Theorem Hypergeometric_new_sound_except (debug : bool) (cap N K n : Z) :
  is_u64 N -> is_u64 K -> is_u64 n ->
  (debug = true -> hyper_known N K n = false) ->
  match Hypergeometric_new_gen prec emax Hp Hpe debug cap N K n with
  | None => True          (* model evaluation refused: more than cap loop iterations *)
  | Some r => agrees r (spec_Hypergeometric_new N K n)
  end.
Proof.
  unfold is_u64. intros HN HK Hn Hk.
  unfold Hypergeometric_new_gen, spec_Hypergeometric_new.
  destruct (K >? N) eqn:E1. { now destruct (n >? N); apply agrees_err. }
  destruct (n >? N) eqn:E2. { now apply agrees_err. }
  change (spec_of _ _ _) with Unspecified.
  assert (Hk' : debug = true -> hyper_known1 N K n = false /\ hyper_known2 N K n = false)
    by (intros D; apply orb_false_elim, Hk, D).
  unfold hyper_known1, hyper_known2 in Hk'. clear Hk. unfold u64_max in *.
  assert (Hhalf : 2 * (N / 2) <= N < 2 * (N / 2) + 2)
    by (pose proof (Z.div_mod N 2); pose proof (Z.mod_pos_bound N 2); lia).
  set (h := N / 2) in *.
  (* the float test selecting HIN / H2PE is left abstract: both branches are covered *)
  destruct (K >? N - K) eqn:E3, (n <=? h) eqn:E4; cbv beta iota zeta.
  - apply hyper_tail_agrees, fpf_pick_no_panic. intros D. destruct (Hk' D) as [_ H2]. lia.
  - (* n1 = N-K, sign_x = -1, offset_x = n as i64: the sum overflows exactly on hyper_known1 *)
    unfold as_i64, in_i64, wrap_i64.
    replace (N - K <? 9223372036854775808) with true by lia.
    match goal with |- context [if ?c then Some (N - n, ?o) else _] => destruct c eqn:E6 end.
    2: destruct debug; [exfalso; destruct (Hk' eq_refl) as [H1 _]; destruct (n <? 9223372036854775808) eqn:E7; lia|].
    all: apply hyper_tail_agrees, fpf_pick_no_panic; intros D; try discriminate D.
    destruct (Hk' D) as [_ H2]. lia.
  - apply hyper_tail_agrees, fpf_pick_no_panic. intros D. destruct (Hk' D) as [_ H2]. lia.
  - (* n1 = K < 2^63, sign_x = 1, offset_x = 0: no overflow *)
    unfold as_i64, in_i64.
    replace (K <? 9223372036854775808) with true by lia.
    replace ((-9223372036854775808 <=? 0 + K * 1) && (0 + K * 1 <=? 9223372036854775807)) with true by lia.
    apply hyper_tail_agrees, fpf_pick_no_panic. intros D. destruct (Hk' D) as [_ H2]. lia.
Qed.
End HyperFmt.
