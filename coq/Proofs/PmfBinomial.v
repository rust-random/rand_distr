(* Proofs/PmfBinomial.v — mathematical identities behind Binomial's BINV sampler
   (binomial.rs:131-133 flip, :150-163 set-up, :184-208 loop).  Pure real/integer facts.

   Code (binomial.rs):
       let flipped = p > 0.5;  let p = if flipped { 1.0 - p } else { p };           (131-133)
       let q = 1.0 - p; let s = p / q;
       Binv { r: q.powf(n), s, a: (n + 1) * s, n }                                  (150-163)
       let mut r = binv.r; let mut u = rng.random(); let mut x = 0;                 (192-194)
       while u > r { u -= r; x += 1; if x > BINV_MAX_X { continue 'outer; }
                     r *= binv.a / (x as f64) - binv.s; }                           (196-203)
       break x;
       if flipped { binv.n - sample } else { sample }                               (207)      *)
From Coq Require Import Reals Lra Lia.
Open Scope R_scope.

Lemma C_pos : forall n x, 0 < C n x.
Proof.
  intros n x. apply Rdiv_lt_0_compat; [|apply Rmult_lt_0_compat]; apply INR_fact_lt_0.
Qed.

(* the value of the variable [r] when the loop counter is x *)
Fixpoint binv_r (n : nat) (p : R) (x : nat) : R :=
  let q := 1 - p in
  let s := p / q in
  let a := (INR n + 1) * s in
  match x with
  | O => q ^ n
  | S x' => binv_r n p x' * (a / INR (S x') - s)
  end.

Definition binom_pmf (n : nat) (p : R) (x : nat) : R := C n x * p ^ x * (1 - p) ^ (n - x).

(* pmf(x+1) = pmf(x) * (a/(x+1) - s) with s = p/q, a = s (n+1): the factor of BINV and of BTPE 5.1 *)
Lemma binom_pmf_step : forall (n : nat) (p : R), 0 < p < 1 -> forall x, (S x <= n)%nat ->
  binom_pmf n p (S x)
  = binom_pmf n p x * ((p / (1 - p)) * (INR n + 1) / INR (S x) - p / (1 - p)).
Proof.
  intros n p Hp x Hx. unfold binom_pmf.
  rewrite pascal_step3, minus_INR, S_INR by lia.
  replace (n - x)%nat with (S (n - S x)) by lia. simpl pow.
  assert (H := pos_INR x). field. lra.
Qed.

Theorem binv_recurrence : forall (n : nat) (p : R), 0 < p < 1 ->
  forall x, (x <= n)%nat -> binv_r n p x = C n x * p ^ x * (1 - p) ^ (n - x).
Proof.
  intros n p Hp x. induction x as [|x IH]; intros Hx.
  - unfold C. rewrite !Nat.sub_0_r. simpl. field. apply INR_fact_neq_0.
  - cbn [binv_r]. rewrite IH, (Rmult_comm (INR n + 1)) by lia.
    symmetry. apply binom_pmf_step; assumption.
Qed.

(* beyond the support the recurrence produces exactly 0: the factor a/(n+1) - s vanishes *)
Theorem binv_recurrence_tail : forall (n : nat) (p : R), 0 < p < 1 ->
  forall x, (n < x)%nat -> binv_r n p x = 0.
Proof.
  intros n p Hp x Hx. induction x as [|x IH]; [lia|].
  cbn [binv_r]. destruct (Nat.eq_dec x n) as [->|Hne].
  - rewrite S_INR. assert (0 <= INR n) by apply pos_INR. field. lra.
  - rewrite IH by lia. ring.
Qed.

(* the pmf values add up to one (binomial theorem) *)
Theorem binom_pmf_total : forall (n : nat) (p : R),
  sum_f_R0 (fun x => C n x * p ^ x * (1 - p) ^ (n - x)) n = 1.
Proof.
  intros n p. rewrite <- binomial. replace (p + (1 - p)) with 1 by ring. apply pow1.
Qed.

Lemma binom_pmf_pos : forall (n : nat) (p : R), 0 < p < 1 -> forall x, 0 < binom_pmf n p x.
Proof.
  intros n p Hp x. unfold binom_pmf.
  apply Rmult_lt_0_compat; [apply Rmult_lt_0_compat; [apply C_pos|]|]; apply pow_lt; lra.
Qed.

Lemma binom_pmf_nz : forall (n : nat) (p : R), 0 < p < 1 -> forall x, (x <= n)%nat ->
  binom_pmf n p x <> 0.
Proof. intros n p Hp x _. apply Rgt_not_eq, binom_pmf_pos, Hp. Qed.

Fixpoint psum (r : nat -> R) (x : nat) : R :=
  match x with O => 0 | S j => psum r j + r j end.

(* [while u > r x { u -= r x; x += 1 }; x] with an iteration bound (None = bound exhausted;
   with fuel = 111 this is the `continue 'outer` of BINV_MAX_X = 110: x = 0..110 can be returned) *)
Fixpoint seq_loop (r : nat -> R) (fuel : nat) (u : R) (x : nat) : option nat :=
  match fuel with
  | O => None
  | S f => if Rlt_dec (r x) u then seq_loop r f (u - r x) (S x) else Some x
  end.

(* the loop exactly as coded, carrying r as a state variable updated by r *= a / x - s *)
Fixpoint binv_loop (a s : R) (fuel : nat) (u r : R) (x : nat) : option nat :=
  match fuel with
  | O => None
  | S f => if Rlt_dec r u then binv_loop a s f (u - r) (r * (a / INR (S x) - s)) (S x)
           else Some x
  end.

Lemma binv_loop_seq : forall n p fuel u x,
  binv_loop ((INR n + 1) * (p / (1 - p))) (p / (1 - p)) fuel u (binv_r n p x) x
  = seq_loop (binv_r n p) fuel u x.
Proof.
  intros n p fuel. induction fuel as [|f IH]; intros u x; [reflexivity|].
  cbn [binv_loop seq_loop]. destruct (Rlt_dec (binv_r n p x) u); [|reflexivity].
  rewrite <- IH. reflexivity.
Qed.

Lemma seq_loop_gen : forall r fuel u x0 x,
  seq_loop r fuel u x0 = Some x <->
  (x0 <= x < x0 + fuel)%nat /\
  (forall j, (x0 <= j < x)%nat -> psum r (S j) < u + psum r x0) /\
  u + psum r x0 <= psum r (S x).
Proof.
  intros r fuel. induction fuel as [|f IH]; intros u x0 x.
  - simpl. split; [discriminate|]. intros [H _]. lia.
  - cbn [seq_loop]. destruct (Rlt_dec (r x0) u) as [Hlt|Hge].
    + rewrite IH. cbn [psum]. split.
      * intros [Hr [Hlo Hhi]]. split; [lia|]. split.
        -- intros j Hj. destruct (Nat.eq_dec j x0) as [->|Hne].
           ++ cbn [psum]. lra.
           ++ specialize (Hlo j ltac:(lia)). cbn [psum] in Hlo. lra.
        -- lra.
      * intros [Hr [Hlo Hhi]].
        assert (x <> x0). { intros ->. cbn [psum] in Hhi. lra. }
        split; [lia|]. split.
        -- intros j Hj. specialize (Hlo j ltac:(lia)). cbn [psum] in Hlo. lra.
        -- lra.
    + split.
      * intros H. injection H as <-. split; [lia|]. split.
        -- intros j Hj. lia.
        -- cbn [psum]. lra.
      * intros [Hr [Hlo Hhi]]. destruct (Nat.eq_dec x x0) as [->|Hne]; [reflexivity|].
        specialize (Hlo x0 ltac:(lia)). cbn [psum] in Hlo. lra.
Qed.

Theorem seq_loop_event : forall r fuel u x,
  seq_loop r fuel u 0 = Some x <->
  (x < fuel)%nat /\ (forall j, (j < x)%nat -> psum r (S j) < u) /\ u <= psum r (S x).
Proof.
  intros r fuel u x. rewrite seq_loop_gen. cbn [psum]. rewrite Rplus_0_r.
  split; intros [H1 [H2 H3]]; (split; [lia|]); (split; [|exact H3]); intros j Hj; apply H2; lia.
Qed.

Lemma psum_ext : forall r r' x, (forall j, (j < x)%nat -> r j = r' j) -> psum r x = psum r' x.
Proof.
  intros r r' x H. induction x as [|x IH]; [reflexivity|].
  cbn [psum]. rewrite IH, H by auto. reflexivity.
Qed.

Lemma psum_mono : forall r, (forall j, 0 <= r j) -> forall i j, (i <= j)%nat -> psum r i <= psum r j.
Proof.
  intros r Hr i j Hij. induction Hij; [lra|]. cbn [psum]. specialize (Hr m). lra.
Qed.

Theorem binv_event : forall r fuel u x, (forall j, 0 <= r j) -> 0 < u ->
  (seq_loop r fuel u 0 = Some x <-> (x < fuel)%nat /\ psum r x < u <= psum r (S x)).
Proof.
  intros r fuel u x Hr Hu. rewrite seq_loop_event. split.
  - intros [H1 [H2 H3]]. split; [exact H1|]. split; [|exact H3].
    destruct x as [|x]; [simpl; exact Hu|]. apply H2. lia.
  - intros [H1 [H2 H3]]. split; [exact H1|]. split; [|exact H3].
    intros j Hj. apply Rle_lt_trans with (2 := H2). apply psum_mono; [exact Hr|lia].
Qed.

(* the binv sequence has nonnegative terms, so binv_event applies to it *)
Lemma binv_r_nonneg : forall n p, 0 < p < 1 -> forall x, 0 <= binv_r n p x.
Proof.
  intros n p Hp x. destruct (le_lt_dec x n) as [Hx|Hx].
  - rewrite binv_recurrence by assumption. left. apply binom_pmf_pos, Hp.
  - rewrite binv_recurrence_tail by assumption. lra.
Qed.

(* BINV as coded (state variable r, constants a and s of the set-up) returns x in [0,n] exactly
   when u falls in the x-th cell of the binomial cdf. *)
Theorem binv_sampler_event : forall (n : nat) (p : R) fuel u x, 0 < p < 1 -> 0 < u -> (x <= n)%nat ->
  let q := 1 - p in let s := p / q in let a := (INR n + 1) * s in
  (binv_loop a s fuel u (q ^ n) 0 = Some x <->
   (x < fuel)%nat /\
   psum (fun j => C n j * p ^ j * (1 - p) ^ (n - j)) x < u
     <= psum (fun j => C n j * p ^ j * (1 - p) ^ (n - j)) (S x)).
Proof.
  intros n p fuel u x Hp Hu Hx q s a. subst q s a.
  change ((1 - p) ^ n) with (binv_r n p 0). rewrite binv_loop_seq.
  rewrite binv_event by (try apply binv_r_nonneg; assumption).
  rewrite !(psum_ext (binv_r n p) (binom_pmf n p)) by (intros; apply binv_recurrence; [assumption|lia]).
  reflexivity.
Qed.

Theorem binomial_flip : forall (n x : nat) (p : R), (x <= n)%nat ->
  C n x * p ^ x * (1 - p) ^ (n - x) = C n (n - x) * (1 - p) ^ (n - x) * p ^ x.
Proof.
  intros n x p Hx. rewrite <- (pascal_step1 n x Hx). ring.
Qed.

(* in the form used by the code: sampling Y ~ Bin(n, 1-p) and returning n - Y *)
Theorem binomial_flip_sample : forall (n y : nat) (p : R), (y <= n)%nat ->
  C n y * (1 - p) ^ y * (1 - (1 - p)) ^ (n - y)
  = C n (n - y) * p ^ (n - y) * (1 - p) ^ (n - (n - y)).
Proof.
  intros n y p Hy. replace (n - (n - y))%nat with y by lia.
  replace (1 - (1 - p)) with p by ring. rewrite <- (pascal_step1 n y Hy). ring.
Qed.

Theorem binv_recurrence_seq : forall (n : nat) (p : R) (r : nat -> R), 0 < p < 1 ->
  let q := 1 - p in let s := p / q in let a := (INR n + 1) * s in
  r 0%nat = q ^ n ->
  (forall x, r (S x) = r x * (a / INR (S x) - s)) ->
  (forall x, (x <= n)%nat -> r x = C n x * p ^ x * q ^ (n - x)) /\
  (forall x, (n < x)%nat -> r x = 0).
Proof.
  intros n p r Hp q s a H0 HS.
  assert (E : forall x, r x = binv_r n p x).
  { induction x as [|x IH]; [exact H0|]. rewrite HS, IH. reflexivity. }
  split; intros x Hx; rewrite E.
  - apply binv_recurrence; assumption.
  - apply binv_recurrence_tail; assumption.
Qed.

Lemma binv_r_def : forall n p,
  binv_r n p 0 = (1 - p) ^ n /\
  forall x, binv_r n p (S x)
            = binv_r n p x * ((INR n + 1) * (p / (1 - p)) / INR (S x) - p / (1 - p)).
Proof. intros. split; reflexivity. Qed.

Lemma psum_def : forall r, psum r 0 = 0 /\ forall x, psum r (S x) = psum r x + r x.
Proof. intros. split; reflexivity. Qed.

Lemma seq_loop_def : forall r u x,
  seq_loop r 0 u x = None /\
  forall f, seq_loop r (S f) u x
            = if Rlt_dec (r x) u then seq_loop r f (u - r x) (S x) else Some x.
Proof. intros. split; reflexivity. Qed.

Lemma binv_loop_def : forall a s u r x,
  binv_loop a s 0 u r x = None /\
  forall f, binv_loop a s (S f) u r x
            = if Rlt_dec r u then binv_loop a s f (u - r) (r * (a / INR (S x) - s)) (S x)
              else Some x.
Proof. intros. split; reflexivity. Qed.
