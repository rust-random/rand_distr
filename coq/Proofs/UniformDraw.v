(* Proofs/UniformDraw.v — one draw of Model.Uniform yields a value of its width and leaves
   64-bit words.  Stdlib only; axiom-free.                                          *)
From Coq Require Import ZArith List Lia.
From RD Require Import Model.Uniform.
Open Scope Z_scope.

Lemma draw_range b ws w r : Forall (fun x => 0 <= x < 2^64) ws -> draw b ws = Some (w, r) ->
  0 <= w < sbits_pow b /\ Forall (fun x => 0 <= x < 2^64) r.
Proof.
  intros F E. destruct b; cbn [draw sbits_pow] in *.
  - destruct ws as [|x xs]; [discriminate|]. injection E as <- <-. apply Forall_cons_iff in F as [Hx F].
    split; [|exact F]. split; [apply Z.div_pos; lia|apply Z.div_lt_upper_bound; lia].
  - destruct ws as [|x xs]; [discriminate|]. injection E as <- <-. now apply Forall_cons_iff in F.
  - destruct ws as [|x [|y xs]]; try discriminate. injection E as <- <-.
    apply Forall_cons_iff in F as [Hx [Hy F]%Forall_cons_iff]. split; [lia|exact F].
Qed.
