(* Proofs/AliasLoop.v — loop invariant of the alias-table construction; alias_new on valid
   input returns a table satisfying Spec; complete characterisation of its error cases *)
From Coq Require Import ZArith List Bool Lia Permutation.
From RD Require Import Model.Tree Model.Alias Proofs.AliasBasics.
Import ListNotations.
Open Scope Z_scope.

Definition wfA (ty : aty) : Prop := alo ty <= 0 <= amax ty.
Definition alen (ws : list Z) : Z := Z.of_nat (length ws).
Definition amaxw (ty : aty) (ws : list Z) : Z :=
  if alen ws <=? amax ty then amax ty / alen ws else 0.

Lemma inra_true : forall ty v, alo ty <= v <= amax ty -> inra ty v = true.
Proof. intros. unfold inra. apply andb_true_iff. split; apply Z.leb_le; lia. Qed.

(* mass that column j hands over to outcome i *)
Definition contrib (t : atab) (i j : nat) : Z :=
  if (geti (t_odds t) j <? t_sum t) && (geti (t_al t) j =? Z.of_nat i)
  then t_sum t - geti (t_odds t) j else 0.

Lemma contrib_nonneg : forall t i j, 0 <= contrib t i j.
Proof.
  intros. unfold contrib. destruct (Z.ltb_spec (geti (t_odds t) j) (t_sum t)); simpl; try lia.
  destruct (_ =? _); lia.
Qed.

Lemma contrib_small : forall t i j a,
  geti (t_odds t) j < t_sum t -> geti (t_al t) j = Z.of_nat a ->
  contrib t i j = if Nat.eqb a i then t_sum t - geti (t_odds t) j else 0.
Proof.
  intros t i j a H E. unfold contrib. rewrite (proj2 (Z.ltb_lt _ _) H), E. cbn [andb].
  destruct (Nat.eqb_spec a i) as [->|]. rewrite Z.eqb_refl. reflexivity.
  rewrite (proj2 (Z.eqb_neq _ _)) by lia. reflexivity.
Qed.

Lemma contrib_big : forall t i j, t_sum t <= geti (t_odds t) j -> contrib t i j = 0.
Proof. intros t i j H. unfold contrib. rewrite (proj2 (Z.ltb_ge _ _) H). reflexivity. Qed.

Lemma contrib_ext : forall t t' i j, t_sum t' = t_sum t ->
  geti (t_odds t') j = geti (t_odds t) j -> geti (t_al t') j = geti (t_al t) j ->
  contrib t' i j = contrib t i j.
Proof. intros t t' i j Es Eo Ea. unfold contrib. rewrite Es, Eo, Ea. reflexivity. Qed.

(* what a table returned for the weights ws satisfies: odds within [0, sum], an alias that can
   be selected is a valid index, own odds plus mass received through aliases is n * w_i *)
Record Spec (ty : aty) (ws : list Z) (t : atab) : Prop := {
  sp_sum : t_sum t = asum ws;
  sp_pos : 0 < t_sum t;
  sp_lo : length (t_odds t) = length ws;
  sp_la : length (t_al t) = length ws;
  sp_n : 0 < alen ws;
  sp_w : forall i, (i < length ws)%nat -> 0 <= nth i ws 0 /\ alen ws * nth i ws 0 <= amax ty;
  sp_range : forall c, (c < length ws)%nat ->
     0 <= geti (t_odds t) c <= t_sum t /\
     (geti (t_odds t) c < t_sum t -> 0 <= geti (t_al t) c < alen ws);
  sp_mass : forall i, (i < length ws)%nat ->
     geti (t_odds t) i + zsumf (contrib t i) (seq 0 (length ws)) = alen ws * nth i ws 0 }.

Definition tab (SS : Z) (s : ast) : atab := {| t_al := al s; t_odds := odds s; t_sum := SS |}.

Lemma classify_eq : forall SS s i, let small := geti (odds s) i <? SS in
  classify SS s i =
  {| odds := odds s;
     al := seti (al s) i (head_or_sent (if small then smalls s else bigs s));
     smalls := if small then i :: smalls s else smalls s;
     bigs := if small then bigs s else i :: bigs s |}.
Proof. intros. subst small. unfold classify. destruct (_ <? _); reflexivity. Qed.

Lemma pair_loop_cons : forall f ty SS s sm sr b br,
  smalls s = sm :: sr -> bigs s = b :: br ->
  pair_loop (S f) ty SS s =
    if inra ty (geti (odds s) b - SS) && inra ty (geti (odds s) b - SS + geti (odds s) sm)
    then pair_loop f ty SS
           (classify SS {| odds := seti (odds s) b (geti (odds s) b - SS + geti (odds s) sm);
                           al := seti (al s) sm (Z.of_nat b); smalls := sr; bigs := br |} b)
    else None.
Proof. intros. simpl. rewrite H, H0. reflexivity. Qed.

Lemma pair_loop_stop : forall f ty SS s, smalls s = [] \/ bigs s = [] -> pair_loop f ty SS s = Some s.
Proof.
  intros f ty SS s H. destruct f; simpl; destruct (smalls s), (bigs s); auto;
  destruct H; discriminate.
Qed.

Section Loop.
Variable ty : aty.
Variable SS : Z.
Variable N : nat.
Variable tgt : nat -> Z.
Hypothesis wf : wfA ty.
Hypothesis SSpos : 0 < SS.

(* The columns 0..N-1 are split into D, finished small columns whose alias is final, the two
   stacks, and P, columns waiting to be put on a stack.  Columns outside D average SS; column i
   together with what D hands over to it weighs tgt i. *)
Record Inv (P : list nat) (s : ast) (D : list nat) : Prop := {
  inv_lo : length (odds s) = N;
  inv_la : length (al s) = N;
  inv_perm : Permutation (D ++ smalls s ++ P ++ bigs s) (seq 0 N);
  inv_rng : forall i, (i < N)%nat -> 0 <= geti (odds s) i <= amax ty;
  inv_sm : forall i, In i (smalls s) -> geti (odds s) i < SS;
  inv_bg : forall i, In i (bigs s) -> SS <= geti (odds s) i;
  inv_dn : forall j, In j D ->
             0 <= geti (odds s) j < SS /\ 0 <= geti (al s) j < Z.of_nat N;
  inv_sum : zsumf (geti (odds s)) (smalls s) + zsumf (geti (odds s)) P
            + zsumf (geti (odds s)) (bigs s)
            = SS * Z.of_nat (length (smalls s) + length P + length (bigs s));
  inv_mass : forall i, (i < N)%nat -> geti (odds s) i + zsumf (contrib (tab SS s) i) D = tgt i }.

Lemma inv_init : forall o a, length o = N -> length a = N ->
  (forall i, (i < N)%nat -> 0 <= geti o i <= amax ty /\ geti o i = tgt i) ->
  zsumf (geti o) (seq 0 N) = SS * Z.of_nat N ->
  Inv (seq 0 N) {| odds := o; al := a; smalls := []; bigs := [] |} [].
Proof.
  intros o a Ho Ha Hr Hs. constructor; cbn [odds al smalls bigs app In]; auto; try tauto.
  - rewrite app_nil_r. reflexivity.
  - apply Hr.
  - rewrite zsumf_nil, Hs, seq_length. cbn [length]. lia.
  - intros i Hi. rewrite zsumf_nil. destruct (Hr i Hi). lia.
Qed.

(* pushing b only writes a stack link into al b, which no finished column reads *)
Lemma inv_classify : forall b P s D, Inv (b :: P) s D -> Inv P (classify SS s b) D.
Proof.
  intros b P s D [Hlo Hla Hperm Hrng Hsm Hbg Hdn Hsum Hmass].
  assert (F : forall v j, In j D -> geti (seti (al s) b v) j = geti (al s) j).
  { intros v j Hj. apply geti_seti_other. intros <-. rewrite app_assoc in Hperm.
    apply perm_seq_elt in Hperm. rewrite !in_app_iff in Hperm. tauto. }
  rewrite classify_eq. constructor; cbn [odds al smalls bigs]; auto.
  - rewrite seti_length. exact Hla.
  - rewrite <- Hperm. apply Permutation_app_head. destruct (_ <? _).
    + apply Permutation_middle.
    + apply Permutation_app_head. symmetry. apply Permutation_middle.
  - destruct (Z.ltb_spec (geti (odds s) b) SS); auto. intros i [<-|Hi]; auto.
  - destruct (Z.ltb_spec (geti (odds s) b) SS); auto. intros i [<-|Hi]; auto.
  - intros j Hj. rewrite F by exact Hj. auto.
  - rewrite zsumf_cons in Hsum. simpl length in Hsum.
    destruct (_ <? _); rewrite zsumf_cons; simpl length; lia.
  - intros i Hi. rewrite <- (Hmass i Hi). f_equal. apply zsumf_ext. intros j Hj.
    apply contrib_ext; auto. apply F, Hj.
Qed.

Lemma inv_classify_all : forall l s D, Inv l s D -> Inv [] (fold_left (classify SS) l s) D.
Proof. induction l; intros s D H. exact H. apply IHl, inv_classify, H. Qed.

(* the head of the small stack is topped up from the head of the big stack and is finished;
   the big column waits to be put on a stack again *)
Lemma inv_transfer : forall s D sm sr b br,
  Inv [] s D -> smalls s = sm :: sr -> bigs s = b :: br ->
  let nb := geti (odds s) b - SS + geti (odds s) sm in
  inra ty (geti (odds s) b - SS) = true /\ inra ty nb = true /\
  Inv [b] {| odds := seti (odds s) b nb; al := seti (al s) sm (Z.of_nat b);
             smalls := sr; bigs := br |} (sm :: D).
Proof.
  intros s D sm sr b br [Hlo Hla Hperm Hrng Hsm Hbg Hdn Hsum Hmass] Es Eb nb.
  rewrite Es, Eb in *. cbn [app] in Hperm.
  destruct (perm_seq_elt D sm _ N Hperm) as [smN Nsm].
  destruct (perm_seq_elt (D ++ sm :: sr) b br N) as [bN Nb].
  { rewrite <- app_assoc. exact Hperm. }
  rewrite !in_app_iff in Nsm, Nb. cbn [In] in Nb.
  pose proof (Hrng sm smN). pose proof (Hrng b bN).
  pose proof (Hsm sm (or_introl eq_refl)). pose proof (Hbg b (or_introl eq_refl)).
  unfold wfA in wf.
  split. apply inra_true; lia.
  split. apply inra_true; lia.
  assert (FD : forall j, In j D -> j <> b /\ j <> sm) by (split; intros ->; tauto).
  assert (smb : sm <> b) by tauto.
  constructor; cbn [odds al smalls bigs].
  - rewrite seti_length. exact Hlo.
  - rewrite seti_length. exact Hla.
  - rewrite <- Hperm. apply Permutation_middle.
  - intros i Hi. destruct (Nat.eq_dec b i) as [<-|Hne].
    + rewrite geti_seti_same; lia.
    + rewrite geti_seti_other; auto.
  - intros i Hi. rewrite geti_seti_other. apply Hsm; right; auto. intros <-. tauto.
  - intros i Hi. rewrite geti_seti_other. apply Hbg; right; auto. intros <-. tauto.
  - intros j [<-|Hj].
    + rewrite geti_seti_other, geti_seti_same by (auto; lia). lia.
    + destruct (FD j Hj). rewrite !geti_seti_other; auto.
  - rewrite !zsumf_cons, zsumf_nil in *. rewrite !zsumf_seti by tauto.
    rewrite geti_seti_same by lia. simpl length in *. unfold nb. lia.
  - (* sm hands SS - odds sm over to b, whose odds fell by as much *)
    intros i Hi. rewrite <- (Hmass i Hi), zsumf_cons.
    rewrite (contrib_small _ i sm b), (zsumf_ext (contrib _ i) (contrib (tab SS s) i) D);
      cbn [tab t_odds t_al t_sum odds al].
    + rewrite (geti_seti_other _ b sm) by auto. destruct (Nat.eqb_spec b i) as [<-|].
      * rewrite geti_seti_same by lia. unfold nb. lia.
      * rewrite geti_seti_other by auto. lia.
    + intros j Hj. destruct (FD j Hj).
      apply contrib_ext; cbn [tab t_odds t_al t_sum odds al]; auto; apply geti_seti_other; auto.
    + rewrite geti_seti_other; auto.
    + apply geti_seti_same. lia.
Qed.

Lemma pair_loop_ok : forall fuel s D,
  Inv [] s D -> (N <= length D + fuel)%nat ->
  exists s' D', pair_loop fuel ty SS s = Some s' /\ Inv [] s' D' /\
                (smalls s' = [] \/ bigs s' = []).
Proof.
  induction fuel; intros s D HI Hf.
  - exists s, D. pose proof (Permutation_length (inv_perm _ _ _ HI)) as L.
    rewrite !app_length, seq_length in L.
    assert (smalls s = []) by (destruct (smalls s); simpl in *; auto; lia).
    split; [apply pair_loop_stop|]; auto.
  - destruct (smalls s) as [|sm sr] eqn:Es; [|destruct (bigs s) as [|b br] eqn:Eb].
    1, 2: exists s, D; split; [apply pair_loop_stop|]; auto.
    destruct (inv_transfer s D sm sr b br HI Es Eb) as (R1 & R2 & HI').
    rewrite (pair_loop_cons fuel ty SS s sm sr b br Es Eb), R1, R2. cbn [andb].
    apply (IHfuel _ (sm :: D)). apply inv_classify, HI'. simpl. lia.
Qed.

(* When one stack is empty the other holds columns that are all at most, or all at least, SS
   and average SS: every column still on a stack holds exactly SS, draining writes what is
   already there, and these columns hand nothing over. *)
Lemma inv_exit : forall s D, Inv [] s D -> smalls s = [] \/ bigs s = [] ->
  tab SS (drain SS s) = tab SS s /\
  (forall c, (c < N)%nat ->
     0 <= geti (odds s) c <= SS /\ (geti (odds s) c < SS -> 0 <= geti (al s) c < Z.of_nat N)) /\
  (forall i, (i < N)%nat -> geti (odds s) i + zsumf (contrib (tab SS s) i) (seq 0 N) = tgt i).
Proof.
  intros s D [Hlo Hla Hperm Hrng Hsm Hbg Hdn Hsum Hmass] H. cbn [app] in Hperm.
  assert (Hall : forall i, In i (smalls s ++ bigs s) -> geti (odds s) i = SS).
  { rewrite zsumf_nil in Hsum. intros i Hi.
    destruct H as [H|H]; rewrite H, ?app_nil_r in *; rewrite zsumf_nil in Hsum; cbn [length] in Hsum.
    - symmetry. apply (zsumf_le_eq (fun _ => SS) (geti (odds s)) (bigs s)); auto.
      rewrite zsumf_const. lia.
    - apply (zsumf_le_eq (geti (odds s)) (fun _ => SS) (smalls s)); auto.
      + intros j Hj. apply Z.lt_le_incl, Hsm, Hj.
      + rewrite zsumf_const. lia. }
  split; [|split].
  - unfold tab, drain. cbn [odds al]. f_equal.
    rewrite (fold_seti_id SS (smalls s) (odds s)), fold_seti_id; auto;
      intros i Hi; apply Hall, in_or_app; auto.
  - intros c Hc. assert (Hin : In c (D ++ smalls s ++ bigs s)).
    { apply (Permutation_in c (Permutation_sym Hperm)), in_seq. lia. }
    apply in_app_or in Hin. destruct Hin as [Hin|Hin].
    + destruct (Hdn c Hin). split; auto. lia.
    + rewrite (Hall c Hin). lia.
  - intros i Hi. rewrite <- (Hmass i Hi), <- (zsumf_perm _ _ _ Hperm), zsumf_app.
    rewrite (zsumf_zero _ (smalls s ++ bigs s)). lia.
    intros j Hj. apply contrib_big. cbn [tab t_odds t_sum]. rewrite (Hall j Hj). lia.
Qed.

End Loop.

Lemma zsum_chk_ok : forall ty ws a, wfA ty -> (forall w, In w ws -> 0 <= w) -> 0 <= a ->
  a + asum ws <= amax ty ->
  fold_left (fun acc w => match acc with None => None
                          | Some a => if inra ty (a + w) then Some (a + w) else None end)
            ws (Some a) = Some (a + asum ws).
Proof.
  unfold wfA. induction ws as [|w ws IH]; intros a wf Hw Ha Hb.
  - simpl. f_equal. lia.
  - rewrite asum_cons in *. pose proof (Hw w (or_introl eq_refl)).
    assert (0 <= asum ws) by (apply asum_nonneg; intros; apply Hw; right; auto).
    cbn [fold_left]. rewrite inra_true, IH; auto; try lia.
    + f_equal. lia.
    + intros; apply Hw; right; auto.
Qed.

Lemma amaxw_bound : forall ty ws, wfA ty -> 0 < alen ws -> 0 <= alen ws * amaxw ty ws <= amax ty.
Proof.
  unfold wfA, amaxw. intros ty ws wf Hn. destruct (Z.leb_spec (alen ws) (amax ty)).
  - split. apply Z.mul_nonneg_nonneg. lia. apply Z.div_pos; lia.
    apply Z.mul_div_le. lia.
  - lia.
Qed.

Definition bad_len (ws : list Z) : Prop := alen ws = 0 \/ alen ws > 4294967295.
Definition bad_w (ty : aty) (ws : list Z) : Prop :=
  exists w, In w ws /\ (w < 0 \/ w > amaxw ty ws).

Lemma bad_len_b : forall ws, (alen ws =? 0) || (SENT <? alen ws) = true <-> bad_len ws.
Proof. intros. unfold bad_len, SENT. rewrite orb_true_iff, Z.eqb_eq, Z.ltb_lt. lia. Qed.

Lemma weights_ok_b : forall ty ws,
  forallb (fun w => (0 <=? w) && (w <=? amaxw ty ws)) ws = true <->
  forall w, In w ws -> 0 <= w <= amaxw ty ws.
Proof.
  intros. rewrite forallb_forall. split; intros H w Hi; specialize (H w Hi);
    rewrite andb_true_iff, !Z.leb_le in *; exact H.
Qed.

Lemma not_bad_w : forall ty ws, ~ bad_w ty ws -> forall w, In w ws -> 0 <= w <= amaxw ty ws.
Proof.
  intros ty ws H w Hi. assert (~ (w < 0 \/ w > amaxw ty ws)).
  { intro. apply H. exists w; auto. }
  lia.
Qed.

Lemma valid_bounds : forall ty ws, wfA ty -> ~ bad_len ws ->
  (forall w, In w ws -> 0 <= w <= amaxw ty ws) ->
  0 < alen ws /\ 0 <= asum ws <= amax ty /\ forall w, In w ws -> 0 <= w * alen ws <= amax ty.
Proof.
  intros ty ws wf Hl Hw. assert (Hn : 0 < alen ws) by (unfold bad_len, alen in *; lia).
  pose proof (amaxw_bound ty ws wf Hn) as Hm. split; [exact Hn|]. split; [split|].
  - apply asum_nonneg. intros w Hi. apply Hw, Hi.
  - pose proof (asum_le_all (amaxw ty ws) ws) as Hle. fold (alen ws) in Hle.
    assert (asum ws <= alen ws * amaxw ty ws) by (apply Hle; intros w Hi; apply Hw, Hi). lia.
  - intros w Hi. apply Hw in Hi. nia.
Qed.

(* what alias_new does once every check has passed *)
Definition build (ty : aty) (SS : Z) (ws : list Z) : res atab :=
  match pair_loop (length ws) ty SS
          (fold_left (classify SS) (seq 0 (length ws))
             {| odds := map (fun w => w * alen ws) ws; al := map (fun _ => 0) ws;
                smalls := []; bigs := [] |}) with
  | None => Panic
  | Some s => Ok (tab SS (drain SS s))
  end.

Lemma alias_new_eq : forall ty ws, alias_new ty ws =
  if (alen ws =? 0) || (SENT <? alen ws) then Err InvalidInput else
  if negb (forallb (fun w => (0 <=? w) && (w <=? amaxw ty ws)) ws) then Err InvalidWeight else
  match zsum_chk ty ws with
  | None => Panic
  | Some SS =>
    if SS =? 0 then Err InsufficientNonZero else
    if negb (forallb (fun w => inra ty (w * alen ws)) ws) then Panic else build ty SS ws
  end.
Proof. reflexivity. Qed.

Lemma alias_new_valid : forall ty ws, wfA ty -> ~ bad_len ws ->
  (forall w, In w ws -> 0 <= w <= amaxw ty ws) ->
  alias_new ty ws = if asum ws =? 0 then Err InsufficientNonZero else build ty (asum ws) ws.
Proof.
  intros ty ws wf Hl Hw. destruct (valid_bounds ty ws wf Hl Hw) as (Hn & Hsb & Hwn).
  unfold wfA in wf. rewrite alias_new_eq.
  destruct (_ || _) eqn:E1. { apply bad_len_b in E1. contradiction. }
  rewrite (proj2 (weights_ok_b ty ws) Hw). cbn [negb].
  unfold zsum_chk. rewrite (zsum_chk_ok ty ws 0), Z.add_0_l; auto; try lia.
  - destruct (asum ws =? 0). reflexivity.
    rewrite (proj2 (forallb_forall _ ws)). reflexivity.
    intros w Hi. apply inra_true. apply Hwn in Hi. lia.
  - intros w Hi. apply Hw, Hi.
Qed.

Lemma build_ok : forall ty ws, wfA ty -> ~ bad_len ws ->
  (forall w, In w ws -> 0 <= w <= amaxw ty ws) -> asum ws <> 0 ->
  exists t, build ty (asum ws) ws = Ok t /\ Spec ty ws t.
Proof.
  intros ty ws wf Hl Hw Hs. destruct (valid_bounds ty ws wf Hl Hw) as (Hn & Hsb & Hwn).
  assert (Hs' : 0 < asum ws) by lia.
  assert (Hwi : forall i, (i < length ws)%nat ->
                  0 <= nth i ws 0 /\ alen ws * nth i ws 0 <= amax ty).
  { intros i Hi. apply nth_In with (d := 0) in Hi. specialize (Hw _ Hi). specialize (Hwn _ Hi). lia. }
  unfold build. set (N := length ws) in *. set (o := map (fun w => w * alen ws) ws).
  destruct (pair_loop_ok ty (asum ws) N (fun i => alen ws * nth i ws 0) wf Hs' N
              (fold_left (classify (asum ws)) (seq 0 N)
                 {| odds := o; al := map (fun _ => 0) ws; smalls := []; bigs := [] |}) [])
    as (s & D & Epl & HI & Hex).
  { assert (Hlo : length o = N) by apply map_length.
    apply inv_classify_all, inv_init; auto.
    - apply map_length.
    - intros i Hi. unfold o. rewrite geti_map by reflexivity. unfold geti.
      destruct (Hwi i Hi). nia.
    - rewrite <- Hlo at 1. unfold o. rewrite zsumf_geti_seq, asum_map_scale. reflexivity. }
  { simpl. lia. }
  destruct (inv_exit _ _ _ _ Hs' s D HI Hex) as (Ed & Hr & Hm).
  rewrite Epl, Ed. eexists. split. reflexivity. constructor; cbn [tab t_sum t_odds t_al]; auto.
  - apply (inv_lo _ _ _ _ _ _ _ HI).
  - apply (inv_la _ _ _ _ _ _ _ HI).
Qed.

Theorem alias_new_errors : forall ty ws, wfA ty ->
  (bad_len ws -> alias_new ty ws = Err InvalidInput) /\
  (~ bad_len ws -> bad_w ty ws -> alias_new ty ws = Err InvalidWeight) /\
  (~ bad_len ws -> ~ bad_w ty ws -> asum ws = 0 -> alias_new ty ws = Err InsufficientNonZero) /\
  (~ bad_len ws -> ~ bad_w ty ws -> asum ws <> 0 -> exists t, alias_new ty ws = Ok t).
Proof.
  intros ty ws wf. split; [|split; [|split]].
  - intros H. rewrite alias_new_eq, (proj2 (bad_len_b ws) H). reflexivity.
  - intros Hl (w & Hi & Hb). rewrite alias_new_eq.
    destruct (_ || _) eqn:E1. { apply bad_len_b in E1. contradiction. }
    destruct (forallb _ ws) eqn:E2; [exfalso|reflexivity].
    pose proof (proj1 (weights_ok_b ty ws) E2 w Hi). lia.
  - intros Hl Hw Hz. rewrite alias_new_valid, Hz by auto using not_bad_w. reflexivity.
  - intros Hl Hw Hs. rewrite alias_new_valid, (proj2 (Z.eqb_neq _ _) Hs) by auto using not_bad_w.
    destruct (build_ok ty ws) as (t & E & _); auto using not_bad_w. exists t. exact E.
Qed.

(* a table is only returned when both checks passed and the sum is not 0 *)
Lemma alias_new_spec : forall ty ws t, wfA ty -> alias_new ty ws = Ok t -> Spec ty ws t.
Proof.
  intros ty ws t wf E. pose proof E as E0. rewrite alias_new_eq in E0.
  destruct (_ || _) eqn:E1; [discriminate|]. destruct (forallb _ ws) eqn:E2; [|discriminate].
  assert (Hl : ~ bad_len ws) by (intro H; apply bad_len_b in H; congruence).
  pose proof (proj1 (weights_ok_b ty ws) E2) as Hw.
  rewrite alias_new_valid in E by assumption.
  destruct (Z.eqb_spec (asum ws) 0) as [|Hs]; [discriminate|].
  destruct (build_ok ty ws wf Hl Hw Hs) as (t' & E' & G). rewrite E' in E.
  inversion E. subst. exact G.
Qed.
