(* Proofs/Consumption.v — bounded consumption of random words (property C05), parts that follow from
   the regenerated tables and from the integer models.                                            *)
From Coq Require Import ZArith Lia.
From RD Require Import Base.Expr Gen.ZigTables Proofs.ZigTables Model.Uniform.
Open Scope Z_scope.

(* probability that one ziggurat pass returns from the rectangle test with its first word:
   (1/256) * sum_i X_{i+1}/X_i  (layer index uniform on 0..255; |u| resp. u uniform) *)
Fixpoint ratio_sum (X : list (Z * Z)) (n : nat) : expr :=
  match n with
  | O => num 0
  | S m => Bin Add (ratio_sum X m) (Bin Div (ent X (S m)) (ent X m))
  end.
Definition first_pass (X : list (Z * Z)) : expr := Bin Div (ratio_sum X 256) (num 256).

Theorem zig_first_pass_norm : RLe (Bin Div (num 985) (num 1000)) (first_pass ZIG_NORM_X).
Proof. apply le_b_sound. vm_compute. reflexivity. Qed.
Theorem zig_first_pass_exp : RLe (Bin Div (num 977) (num 1000)) (first_pass ZIG_EXP_X).
Proof. apply le_b_sound. vm_compute. reflexivity. Qed.

(* rand's Canon range reduction draws at most twice; Lemire with fuel f draws at most f times *)
Definition words_per_draw (b : sbits) : nat := match b with B128 => 2%nat | _ => 1%nat end.

Lemma draw_consumes b ws w r : draw b ws = Some (w, r) -> length ws = (length r + words_per_draw b)%nat.
Proof. destruct b; simpl; destruct ws as [|x [|y xs]]; intros H; inversion H; subst; simpl; lia. Qed.

Theorem canon_words b range ws v rest : canon b range ws = Some (v, rest) ->
  (length ws - length rest <= 2 * words_per_draw b)%nat /\ (length rest <= length ws)%nat.
Proof.
  unfold canon. destruct (draw b ws) as [[w1 r1]|] eqn:D1; [|discriminate].
  apply draw_consumes in D1.
  destruct (_ <? _).
  - destruct (draw b r1) as [[w2 r2]|] eqn:D2; [|discriminate]. apply draw_consumes in D2.
    intros H; inversion H; subst. lia.
  - intros H; inversion H; subst. lia.
Qed.

Theorem lemire_words : forall fuel b range ws v rest, lemire fuel b range ws = Some (v, rest) ->
  (length ws - length rest <= fuel * words_per_draw b)%nat /\ (length rest <= length ws)%nat.
Proof.
  induction fuel as [|f IH]; intros b range ws v rest H; [discriminate|].
  cbn [lemire] in H. destruct (draw b ws) as [[w r]|] eqn:D; [|discriminate]. apply draw_consumes in D.
  destruct (_ <=? _).
  - inversion H; subst. lia.
  - apply IH in H. lia.
Qed.
