(* Proofs/KS.v — property C13: Kolmogorov distance between the empirical measure of a finite sorted sample
   s_1 <= ... <= s_N (each point carrying mass 1/N) and a CDF F.

   G s is the empirical CDF and Dmax s F the largest of the 2N deviations
   |F s_k - k/N|, |F s_k - (k-1)/N|.  ks_step_formula: |G s - F| <= Dmax s F everywhere,
   for F monotone with values in [0,1].  ks_sup_exact: Dmax s F is the least upper bound
   of |G s - F| as soon as F can be approached from the left at the sample points
   (F continuous, say).  Then upper bounds on Dmax: from enclosures of F at the sample
   points (what the checker computes), and from a pointwise error analysis of a sampler.
   Everything is elementary (stdlib Reals only). *)

From Coq Require Import Reals List Lia Lra Sorted.
Import ListNotations.
Local Open Scope R_scope.

Definition mono (F : R -> R) : Prop := forall x y, x <= y -> F x <= F y.

Fixpoint count_le (x : R) (s : list R) : nat :=
  match s with
  | [] => O
  | v :: t => if Rle_dec v x then S (count_le x t) else count_le x t
  end.

(* empirical CDF of the multiset s (mass 1/N on each element, ties add up) *)
Definition G (s : list R) (x : R) : R := INR (count_le x s) / INR (length s).

(* max over the list of f (index) (element), indices starting at k; the empty max is 0 *)
Fixpoint maxl (f : nat -> R -> R) (k : nat) (s : list R) : R :=
  match s with
  | [] => 0
  | v :: t => Rmax (f k v) (maxl f (S k) t)
  end.

(* the two deviations at the (k+1)-th order statistic v (k is 0-based) *)
Definition dev (F : R -> R) (N : R) (k : nat) (v : R) : R :=
  Rmax (Rabs (F v - INR (S k) / N)) (Rabs (F v - INR k / N)).
Definition devp (F : R -> R) (N : R) (k : nat) (v : R) : R := INR (S k) / N - F v.
Definition devm (F : R -> R) (N : R) (k : nat) (v : R) : R := F v - INR k / N.

Definition Dmax (s : list R) (F : R -> R) : R := maxl (dev F (INR (length s))) 0 s.
Definition Dplus (s : list R) (F : R -> R) : R := maxl (devp F (INR (length s))) 0 s.
Definition Dminus (s : list R) (F : R -> R) : R := maxl (devm F (INR (length s))) 0 s.

(* enclosure version: Flo <= F <= Fhi *)
Definition devE (Flo Fhi : R -> R) (N : R) (k : nat) (v : R) : R :=
  Rmax (Fhi v - INR k / N) (INR (S k) / N - Flo v).
Definition Dencl (s : list R) (Flo Fhi : R -> R) : R :=
  maxl (devE Flo Fhi (INR (length s))) 0 s.

(* list version: lh_k = (lo_k, hi_k) encloses F s_k *)
Fixpoint DenclL (N : R) (k : nat) (lh : list (R * R)) : R :=
  match lh with
  | [] => 0
  | (lo, hi) :: t => Rmax (Rmax (hi - INR k / N) (INR (S k) / N - lo)) (DenclL N (S k) t)
  end.

(* maxl f k s is the least upper bound of 0 and the f (k + i) s_i *)

Lemma maxl_nonneg : forall f s k, 0 <= maxl f k s.
Proof.
  induction s as [|v t IH]; intros k; simpl; [lra|].
  eapply Rle_trans; [apply (IH (S k))|apply Rmax_r].
Qed.

Lemma maxl_ge : forall f s k i, (i < length s)%nat ->
  f (k + i)%nat (nth i s 0) <= maxl f k s.
Proof.
  induction s as [|v t IH]; intros k [|i] Hi; simpl in *; try lia.
  - rewrite Nat.add_0_r. apply Rmax_l.
  - rewrite <- Nat.add_succ_comm. eapply Rle_trans; [apply IH; lia|apply Rmax_r].
Qed.

Lemma maxl_le : forall f s k B, 0 <= B ->
  (forall i, (i < length s)%nat -> f (k + i)%nat (nth i s 0) <= B) ->
  maxl f k s <= B.
Proof.
  induction s as [|v t IH]; intros k B HB H; simpl in *; [lra|].
  apply Rmax_lub.
  - rewrite <- (Nat.add_0_r k). apply (H O). lia.
  - apply IH; [lra|]. intros i Hi. rewrite Nat.add_succ_comm. apply (H (S i)). lia.
Qed.

Lemma maxl_attained : forall f s k,
  maxl f k s = 0 \/
  exists i, (i < length s)%nat /\ maxl f k s = f (k + i)%nat (nth i s 0).
Proof.
  induction s as [|v t IH]; intros k; simpl; [now left|].
  apply Rmax_case.
  - right; exists O. rewrite Nat.add_0_r. split; [lia|reflexivity].
  - destruct (IH (S k)) as [H0|[i [Hi He]]]; [now left|].
    right; exists (S i). rewrite <- Nat.add_succ_comm. split; [lia|exact He].
Qed.

Lemma maxl_mono : forall f g s k,
  (forall i, (i < length s)%nat -> f (k + i)%nat (nth i s 0) <= g (k + i)%nat (nth i s 0)) ->
  maxl f k s <= maxl g k s.
Proof.
  intros f g s k H. apply maxl_le; [apply maxl_nonneg|].
  intros i Hi. eapply Rle_trans; [apply H; assumption|apply maxl_ge; assumption].
Qed.

Lemma count_le_length : forall x s, (count_le x s <= length s)%nat.
Proof.
  induction s as [|v t IH]; simpl; [lia|]. destruct (Rle_dec v x); lia.
Qed.

Lemma count_zero : forall x s, (forall w, In w s -> x < w) -> count_le x s = O.
Proof.
  induction s as [|v t IH]; intros H; simpl; [reflexivity|].
  destruct (Rle_dec v x) as [Hv|Hv].
  - specialize (H v (or_introl eq_refl)). lra.
  - apply IH. intros w Hw. apply H. right; assumption.
Qed.

(* In a sorted list the elements <= x are exactly the first count_le x s ones. *)
Lemma count_spec : forall x s, Sorted Rle s ->
  forall i, (i < length s)%nat -> (i < count_le x s)%nat <-> nth i s 0 <= x.
Proof.
  intros x s Hs. apply (Sorted_StronglySorted Rle_trans) in Hs.
  induction Hs as [|v t _ IH Hall]; intros i Hi; [simpl in Hi; lia|].
  rewrite Forall_forall in Hall. simpl count_le.
  destruct (Rle_dec v x) as [Hv|Hv].
  - destruct i as [|i]; simpl in *; [split; [trivial|lia]|].
    rewrite <- IH by lia. lia.
  - rewrite count_zero by (intros w Hw; specialize (Hall w Hw); lra).
    assert (v <= nth i (v :: t) 0)
      by (destruct i; simpl in *; [lra|apply Hall, nth_In; lia]).
    split; [lia|lra].
Qed.

Lemma Rabs_le_inv' : forall x a, Rabs x <= a -> - a <= x <= a.
Proof. intros x a. unfold Rabs. destruct (Rcase_abs x); lra. Qed.

Lemma INR_S_div : forall k N, INR (S k) / N = INR k / N + 1 / N.
Proof. intros. rewrite S_INR. unfold Rdiv. ring. Qed.

Lemma devp_le_dev : forall F N k v, devp F N k v <= dev F N k v.
Proof.
  intros. unfold devp, dev.
  eapply Rle_trans; [|apply Rmax_l].
  rewrite Rabs_minus_sym. apply Rle_abs.
Qed.

Lemma devm_le_dev : forall F N k v, devm F N k v <= dev F N k v.
Proof.
  intros. unfold devm, dev.
  eapply Rle_trans; [|apply Rmax_r]. apply Rle_abs.
Qed.

(* with k/N < (k+1)/N the absolute values are redundant *)
Lemma dev_eq : forall F N k v, 0 < N ->
  dev F N k v = Rmax (devp F N k v) (devm F N k v).
Proof.
  intros F N k v HN.
  apply Rle_antisym; [|apply Rmax_lub; [apply devp_le_dev|apply devm_le_dev]].
  pose proof (Rmax_l (devp F N k v) (devm F N k v)).
  pose proof (Rmax_r (devp F N k v) (devm F N k v)).
  assert (0 < 1 / N) by (apply Rdiv_lt_0_compat; lra).
  unfold dev, devp, devm in *. rewrite INR_S_div in *.
  apply Rmax_lub; apply Rabs_le; lra.
Qed.

Lemma dev_le_devE : forall F Flo Fhi N k v, 0 < N ->
  Flo v <= F v <= Fhi v -> dev F N k v <= devE Flo Fhi N k v.
Proof.
  intros F Flo Fhi N k v HN [Hl Hh].
  rewrite dev_eq by assumption. unfold devp, devm, devE.
  rewrite Rmax_comm. apply Rmax_lub.
  - eapply Rle_trans; [|apply Rmax_l]. lra.
  - eapply Rle_trans; [|apply Rmax_r]. lra.
Qed.

Lemma Dplus_le_Dmax : forall s F, Dplus s F <= Dmax s F.
Proof. intros. apply maxl_mono. intros. apply devp_le_dev. Qed.

Lemma Dminus_le_Dmax : forall s F, Dminus s F <= Dmax s F.
Proof. intros. apply maxl_mono. intros. apply devm_le_dev. Qed.

Lemma Dmax_nonneg : forall s F, 0 <= Dmax s F.
Proof. intros. apply maxl_nonneg. Qed.

Lemma length_pos_nat : forall (s : list R), s <> [] -> (0 < length s)%nat.
Proof. intros [|v t] Hs; [congruence|simpl; lia]. Qed.

Lemma length_pos : forall (s : list R), s <> [] -> 0 < INR (length s).
Proof. intros s Hs. apply lt_0_INR, length_pos_nat, Hs. Qed.

(* For a non-empty sample, Dmax is the maximum of finitely many deviations: it
   dominates each of them and equals one of them. *)
Lemma Dmax_ge : forall s F k, (k < length s)%nat ->
  dev F (INR (length s)) k (nth k s 0) <= Dmax s F.
Proof. intros. apply (maxl_ge (dev F (INR (length s))) s O k). assumption. Qed.

Lemma Dmax_attained : forall s F, s <> [] ->
  exists k, (k < length s)%nat /\ Dmax s F = dev F (INR (length s)) k (nth k s 0).
Proof.
  intros s F Hs.
  destruct (maxl_attained (dev F (INR (length s))) s O) as [H0|H]; [|exact H].
  (* all deviations lie between 0 and Dmax = 0: any index will do *)
  pose proof (length_pos_nat s Hs) as Hk.
  exists O; split; [exact Hk|].
  apply Rle_antisym; [|apply Dmax_ge, Hk].
  unfold Dmax. rewrite H0.
  eapply Rle_trans; [apply Rabs_pos|apply Rmax_l].
Qed.

Lemma Dmax_eq_max_Dplus_Dminus : forall s F, s <> [] ->
  Dmax s F = Rmax (Dplus s F) (Dminus s F).
Proof.
  intros s F Hs. pose proof (length_pos s Hs) as HN.
  apply Rle_antisym; [|apply Rmax_lub; [apply Dplus_le_Dmax|apply Dminus_le_Dmax]].
  apply maxl_le.
  - eapply Rle_trans; [apply (maxl_nonneg (devp F (INR (length s))) s O)|apply Rmax_l].
  - intros i Hi. rewrite dev_eq by assumption.
    eapply Rle_trans; [apply Rle_max_compat_l|apply Rle_max_compat_r];
      [apply (maxl_ge (devm F _) s O i Hi)|apply (maxl_ge (devp F _) s O i Hi)].
Qed.

(* The step formula.  With c = count_le x s, G s x = c/N and s_c <= x < s_(c+1): monotonicity of F turns
   c/N - F x into the D+ term at s_c and F x - c/N into the D- term at s_(c+1); at
   the two ends the range of F is used instead. *)

Theorem ks_upper : forall (F : R -> R) (s : list R),
  mono F -> (forall x, 0 <= F x <= 1) -> s <> [] -> Sorted Rle s ->
  forall x, G s x - F x <= Dplus s F.
Proof.
  intros F s Fmono Frange Hne Hs x. pose proof (length_pos s Hne) as HN.
  pose proof (count_le_length x s) as Hlen. unfold G.
  destruct (count_le x s) as [|c] eqn:Hc.
  - pose proof (Frange x). pose proof (maxl_nonneg (devp F (INR (length s))) s O).
    unfold Dplus, Rdiv. simpl. lra.
  - assert (Hx : nth c s 0 <= x) by (apply (count_spec x s Hs c); lia).
    assert (devp F (INR (length s)) c (nth c s 0) <= Dplus s F)
      by (apply (maxl_ge (devp F _) s O c); lia).
    apply Fmono in Hx. unfold devp in *. lra.
Qed.

Theorem ks_lower : forall (F : R -> R) (s : list R),
  mono F -> (forall x, 0 <= F x <= 1) -> s <> [] -> Sorted Rle s ->
  forall x, F x - G s x <= Dminus s F.
Proof.
  intros F s Fmono Frange Hne Hs x. pose proof (length_pos s Hne) as HN.
  pose proof (count_le_length x s) as Hlen. unfold G.
  set (c := count_le x s) in *.
  destruct (Nat.eq_dec c (length s)) as [He|Hn].
  - pose proof (Frange x). pose proof (maxl_nonneg (devm F (INR (length s))) s O).
    rewrite He. unfold Dminus, Rdiv. rewrite Rinv_r by lra. lra.
  - assert (Hx : x < nth c s 0).
    { apply Rnot_le_lt. intros H. apply (count_spec x s Hs c) in H; fold c in H; lia. }
    assert (devm F (INR (length s)) c (nth c s 0) <= Dminus s F)
      by (apply (maxl_ge (devm F _) s O c); lia).
    apply Rlt_le, Fmono in Hx. unfold devm in *. lra.
Qed.

(* the two-sided step formula (only monotonicity and range of F are used) *)
Theorem ks_step_formula : forall (F : R -> R) (s : list R),
  mono F -> (forall x, 0 <= F x <= 1) -> s <> [] -> Sorted Rle s ->
  forall x, - Dmax s F <= G s x - F x <= Dmax s F.
Proof.
  intros F s H1 H2 H3 H4 x.
  pose proof (ks_upper F s H1 H2 H3 H4 x). pose proof (ks_lower F s H1 H2 H3 H4 x).
  pose proof (Dplus_le_Dmax s F). pose proof (Dminus_le_Dmax s F). lra.
Qed.

Theorem ks_step_formula_abs : forall (F : R -> R) (s : list R),
  mono F -> (forall x, 0 <= F x <= 1) -> s <> [] -> Sorted Rle s ->
  forall x, Rabs (G s x - F x) <= Dmax s F.
Proof.
  intros F s H1 H2 H3 H4 x. apply Rabs_le. apply ks_step_formula; assumption.
Qed.

(* values of F just to the left of a come arbitrarily close to F a *)
Definition left_approx (F : R -> R) (a : R) : Prop :=
  forall eps, 0 < eps -> exists x, x < a /\ F a - eps < F x.

Lemma continuity_left_approx : forall F a, continuity_pt F a -> left_approx F a.
Proof.
  intros F a Hc eps Heps.
  destruct (Hc eps Heps) as [alp [Halp H]].
  exists (a - alp / 2). split; [lra|].
  assert (Hd : dist R_met (F (a - alp / 2)) (F a) < eps).
  { apply H. split.
    - split; [exact I|lra].
    - simpl. unfold R_dist. replace (a - alp / 2 - a) with (- (alp / 2)) by ring.
      rewrite Rabs_Ropp, Rabs_pos_eq; lra. }
  simpl in Hd. unfold R_dist in Hd. apply Rabs_def2 in Hd. lra.
Qed.

Lemma INR_div_le : forall a b n, (0 < n)%nat -> (a <= b)%nat -> INR a / INR n <= INR b / INR n.
Proof.
  intros a b n Hn Hab. apply Rmult_le_compat_r; [|apply le_INR, Hab].
  left. apply Rinv_0_lt_compat, lt_0_INR, Hn.
Qed.

(* G has reached (k+1)/N at s_k and is still at most k/N to its left. *)
Lemma G_at_sample : forall s k, Sorted Rle s -> (k < length s)%nat ->
  INR (S k) / INR (length s) <= G s (nth k s 0).
Proof.
  intros s k Hs Hk. apply INR_div_le; [lia|].
  apply (count_spec (nth k s 0) s Hs k Hk), Rle_refl.
Qed.

Lemma G_left_of_sample : forall s k x, Sorted Rle s -> (k < length s)%nat ->
  x < nth k s 0 -> G s x <= INR k / INR (length s).
Proof.
  intros s k x Hs Hk Hx. apply INR_div_le; [lia|].
  apply Nat.nlt_ge. intros H. apply (count_spec x s Hs k Hk) in H. lra.
Qed.

(* The deviation that realises Dmax is a D+ term, attained by G - F at the sample
   point, or a D- term, approached by F - G from the left of it. *)
Theorem ks_sup_approached : forall (F : R -> R) (s : list R),
  s <> [] -> Sorted Rle s ->
  (forall k, (k < length s)%nat -> left_approx F (nth k s 0)) ->
  forall eps, 0 < eps -> exists x, Dmax s F - eps < Rabs (G s x - F x).
Proof.
  intros F s Hne Hs Hl eps Heps.
  destruct (Dmax_attained s F Hne) as [k [Hk He]].
  rewrite He, dev_eq by (apply length_pos, Hne).
  apply Rmax_case; unfold devp, devm.
  - exists (nth k s 0).
    pose proof (G_at_sample s k Hs Hk).
    pose proof (Rle_abs (G s (nth k s 0) - F (nth k s 0))). lra.
  - destruct (Hl k Hk eps Heps) as [x [Hx Hf]]. exists x.
    pose proof (G_left_of_sample s k x Hs Hk Hx).
    pose proof (Rle_abs (F x - G s x)). rewrite Rabs_minus_sym. lra.
Qed.

(* Exact formula: for F monotone, [0,1]-valued and continuous (left-approximable at
   the sample points suffices), Dmax s F is the supremum of |G - F|. *)
Theorem ks_sup_exact : forall (F : R -> R) (s : list R),
  mono F -> (forall x, 0 <= F x <= 1) -> s <> [] -> Sorted Rle s ->
  (forall k, (k < length s)%nat -> left_approx F (nth k s 0)) ->
  is_lub (fun d => exists x, d = Rabs (G s x - F x)) (Dmax s F).
Proof.
  intros F s H1 H2 H3 H4 Hl. split.
  - intros d [x Hd]. subst d. apply ks_step_formula_abs; assumption.
  - intros b Hb. destruct (Rle_dec (Dmax s F) b) as [Hle|Hgt]; [assumption|].
    exfalso.
    destruct (ks_sup_approached F s H3 H4 Hl (Dmax s F - b) ltac:(lra)) as [x Hx].
    assert (Rabs (G s x - F x) <= b) by (apply Hb; exists x; reflexivity).
    lra.
Qed.

Corollary ks_sup_exact_continuous : forall (F : R -> R) (s : list R),
  mono F -> (forall x, 0 <= F x <= 1) -> (forall x, continuity_pt F x) ->
  s <> [] -> Sorted Rle s ->
  is_lub (fun d => exists x, d = Rabs (G s x - F x)) (Dmax s F).
Proof.
  intros F s H1 H2 Hc H3 H4. apply ks_sup_exact; try assumption.
  intros k _. apply continuity_left_approx. apply Hc.
Qed.

(* pointwise enclosure at the sample points suffices *)
Theorem max_dev_monotone : forall (F Flo Fhi : R -> R) (s : list R),
  (forall v, In v s -> Flo v <= F v <= Fhi v) ->
  Dmax s F <= Dencl s Flo Fhi.
Proof.
  intros F Flo Fhi s H. apply maxl_mono. intros i Hi.
  apply dev_le_devE; [apply lt_0_INR; lia|apply H, nth_In, Hi].
Qed.

Lemma DenclL_ge : forall F N s lh k,
  Forall2 (fun v p => fst p <= F v <= snd p) s lh -> (s <> [] -> 0 < N) ->
  maxl (dev F N) k s <= DenclL N k lh.
Proof.
  intros F N s lh k H. revert k.
  induction H as [|v [lo hi] t lt Hv Ht IH]; intros k HN; simpl; [lra|].
  assert (0 < N) by (apply HN; discriminate).
  apply Rmax_lub.
  - eapply Rle_trans; [|apply Rmax_l].
    apply (dev_le_devE F (fun _ => lo) (fun _ => hi)); assumption.
  - eapply Rle_trans; [apply IH; trivial|apply Rmax_r].
Qed.

Theorem max_dev_enclosure_list : forall (F : R -> R) (s : list R) (lh : list (R * R)),
  Forall2 (fun v p => fst p <= F v <= snd p) s lh ->
  Dmax s F <= DenclL (INR (length s)) 0 lh.
Proof. intros F s lh H. apply DenclL_ge; [exact H|apply length_pos]. Qed.

(* rigorous upper bound on the KS statistic from enclosures of F at the sample points *)
Theorem ks_bound_from_enclosures : forall (F Flo Fhi : R -> R) (s : list R),
  mono F -> (forall x, 0 <= F x <= 1) -> s <> [] -> Sorted Rle s ->
  (forall v, In v s -> Flo v <= F v <= Fhi v) ->
  forall x, Rabs (G s x - F x) <= Dencl s Flo Fhi.
Proof.
  intros F Flo Fhi s H1 H2 H3 H4 H x.
  eapply Rle_trans; [apply ks_step_formula_abs; assumption|].
  apply max_dev_monotone. assumption.
Qed.

Theorem ks_bound_from_enclosure_list : forall (F : R -> R) (s : list R) (lh : list (R * R)),
  mono F -> (forall x, 0 <= F x <= 1) -> s <> [] -> Sorted Rle s ->
  Forall2 (fun v p => fst p <= F v <= snd p) s lh ->
  forall x, Rabs (G s x - F x) <= DenclL (INR (length s)) 0 lh.
Proof.
  intros F s lh H1 H2 H3 H4 H x.
  eapply Rle_trans; [apply ks_step_formula_abs; assumption|].
  apply max_dev_enclosure_list. assumption.
Qed.

(* Core: if F s_k is within c of the draw u_k and the draw u_k is within e of the
   grid point k/N, then every deviation is at most 1/N + e + c. *)
Lemma Dmax_from_cdf_dev : forall (F : R -> R) (us s : list R) (c e : R),
  s <> [] ->
  (forall k, (k < length s)%nat -> Rabs (F (nth k s 0) - nth k us 0) <= c) ->
  (forall k, (k < length s)%nat -> Rabs (nth k us 0 - INR (S k) / INR (length s)) <= e) ->
  Dmax s F <= 1 / INR (length s) + e + c.
Proof.
  intros F us s c e Hne Hc He.
  pose proof (length_pos s Hne) as HN.
  assert (HiN : 0 < 1 / INR (length s)) by (apply Rdiv_lt_0_compat; lra).
  assert (Hce : 0 <= e + c).
  { pose proof (length_pos_nat s Hne) as Hk0.
    pose proof (Hc O Hk0). pose proof (He O Hk0).
    pose proof (Rabs_pos (F (nth 0 s 0) - nth 0 us 0)).
    pose proof (Rabs_pos (nth 0 us 0 - INR 1 / INR (length s))). lra. }
  apply maxl_le; [lra|].
  intros k Hk. simpl.
  pose proof (Rabs_le_inv' _ _ (Hc k Hk)). pose proof (Rabs_le_inv' _ _ (He k Hk)).
  unfold dev. rewrite INR_S_div in *.
  apply Rmax_lub; apply Rabs_le; lra.
Qed.

Theorem ks_from_cdf_dev : forall (F : R -> R) (us s : list R) (c e : R),
  mono F -> (forall x, 0 <= F x <= 1) -> s <> [] -> Sorted Rle s ->
  (forall k, (k < length s)%nat -> Rabs (F (nth k s 0) - nth k us 0) <= c) ->
  (forall k, (k < length s)%nat -> Rabs (nth k us 0 - INR (S k) / INR (length s)) <= e) ->
  forall x, Rabs (G s x - F x) <= 1 / INR (length s) + e + c.
Proof.
  intros F us s c e H1 H2 H3 H4 Hc He x.
  eapply Rle_trans; [apply ks_step_formula_abs; assumption|].
  apply (Dmax_from_cdf_dev F us s c e); assumption.
Qed.

(* Relative-error version.  T is the quantile function (F (T u_k) = u_k on the draw
    grid), the computed outputs s_k have relative error delta w.r.t. T u_k, and F
   moves by at most delta*M under a relative perturbation delta of its argument. *)
Theorem ks_from_pointwise : forall (T F : R -> R) (us s : list R) (delta M e : R),
  mono F -> (forall x, 0 <= F x <= 1) -> s <> [] -> Sorted Rle s ->
  (forall k, (k < length s)%nat -> F (T (nth k us 0)) = nth k us 0) ->
  (forall k, (k < length s)%nat -> Rabs (nth k us 0 - INR (S k) / INR (length s)) <= e) ->
  (forall k, (k < length s)%nat ->
     Rabs (nth k s 0 - T (nth k us 0)) <= delta * Rabs (T (nth k us 0))) ->
  (forall x h, Rabs h <= delta * Rabs x -> Rabs (F (x + h) - F x) <= delta * M) ->
  forall x, Rabs (G s x - F x) <= 1 / INR (length s) + e + delta * M.
Proof.
  intros T F us s delta M e H1 H2 H3 H4 HT He Hs HF x.
  apply (ks_from_cdf_dev F us s (delta * M) e); try assumption.
  intros k Hk. rewrite <- (HT k Hk) at 1.
  set (t := T (nth k us 0)).
  replace (nth k s 0) with (t + (nth k s 0 - t)) by ring.
  apply HF. apply Hs. assumption.
Qed.

(* The instance asked for: draws 0 < u_k < 1 within 1/N of k/N, quantile identity on
   (0,1): the Kolmogorov distance is at most 2/N + delta*M. *)
Corollary ks_from_pointwise_2N : forall (T F : R -> R) (us s : list R) (delta M : R),
  mono F -> (forall x, 0 <= F x <= 1) -> s <> [] -> Sorted Rle s ->
  (forall u, 0 < u < 1 -> F (T u) = u) ->
  (forall k, (k < length s)%nat -> 0 < nth k us 0 < 1) ->
  (forall k, (k < length s)%nat ->
     Rabs (nth k us 0 - INR (S k) / INR (length s)) <= 1 / INR (length s)) ->
  (forall k, (k < length s)%nat ->
     Rabs (nth k s 0 - T (nth k us 0)) <= delta * Rabs (T (nth k us 0))) ->
  (forall x h, Rabs h <= delta * Rabs x -> Rabs (F (x + h) - F x) <= delta * M) ->
  forall x, Rabs (G s x - F x) <= 2 / INR (length s) + delta * M.
Proof.
  intros T F us s delta M H1 H2 H3 H4 HT Hu He Hs HF x.
  replace (2 / INR (length s)) with (1 / INR (length s) + 1 / INR (length s))
    by (unfold Rdiv; ring).
  apply (ks_from_pointwise T F us s delta M (1 / INR (length s))); try assumption.
  intros k Hk. apply HT. apply Hu. assumption.
Qed.

Lemma nth_map_seq : forall (f : nat -> R) n k, (k < n)%nat ->
  nth k (map f (seq 0 n)) 0 = f k.
Proof.
  intros f n k Hk.
  rewrite (nth_indep _ 0 (f O)) by (rewrite map_length, seq_length; assumption).
  rewrite map_nth. rewrite seq_nth by assumption. reflexivity.
Qed.

(* Exact grid u_k = k/N, k = 1..N (OpenClosed01 draws): 1/N + delta*M. *)
Corollary ks_from_pointwise_grid : forall (T F : R -> R) (s : list R) (delta M : R),
  mono F -> (forall x, 0 <= F x <= 1) -> s <> [] -> Sorted Rle s ->
  (forall k, (k < length s)%nat ->
     F (T (INR (S k) / INR (length s))) = INR (S k) / INR (length s)) ->
  (forall k, (k < length s)%nat ->
     Rabs (nth k s 0 - T (INR (S k) / INR (length s)))
       <= delta * Rabs (T (INR (S k) / INR (length s)))) ->
  (forall x h, Rabs h <= delta * Rabs x -> Rabs (F (x + h) - F x) <= delta * M) ->
  forall x, Rabs (G s x - F x) <= 1 / INR (length s) + delta * M.
Proof.
  intros T F s delta M H1 H2 H3 H4 HT Hs HF x.
  set (N := INR (length s)).
  set (us := map (fun k => INR (S k) / N) (seq 0 (length s))).
  assert (Hus : forall k, (k < length s)%nat -> nth k us 0 = INR (S k) / N).
  { intros k Hk. apply (nth_map_seq (fun k => INR (S k) / N)). assumption. }
  replace (1 / N + delta * M) with (1 / N + 0 + delta * M) by ring.
  apply (ks_from_pointwise T F us s delta M 0); try assumption;
    intros k Hk; rewrite (Hus k Hk).
  - apply HT. assumption.
  - fold N. rewrite Rminus_diag_eq, Rabs_R0 by reflexivity. lra.
  - apply Hs. assumption.
Qed.

(* Absolute-error / Lipschitz version: |s_k - T u_k| <= eps and F is L-Lipschitz. *)
Corollary ks_from_pointwise_abs : forall (T F : R -> R) (us s : list R) (eps L e : R),
  mono F -> (forall x, 0 <= F x <= 1) -> s <> [] -> Sorted Rle s ->
  0 <= L ->
  (forall k, (k < length s)%nat -> F (T (nth k us 0)) = nth k us 0) ->
  (forall k, (k < length s)%nat -> Rabs (nth k us 0 - INR (S k) / INR (length s)) <= e) ->
  (forall k, (k < length s)%nat -> Rabs (nth k s 0 - T (nth k us 0)) <= eps) ->
  (forall x y, Rabs (F x - F y) <= L * Rabs (x - y)) ->
  forall x, Rabs (G s x - F x) <= 1 / INR (length s) + e + L * eps.
Proof.
  intros T F us s eps L e H1 H2 H3 H4 HL HT He Hs HF x.
  apply (ks_from_cdf_dev F us s (L * eps) e); try assumption.
  intros k Hk. rewrite <- (HT k Hk) at 1.
  eapply Rle_trans; [apply HF|]. apply Rmult_le_compat_l; [assumption|].
  apply Hs. assumption.
Qed.

(* Example: the hypotheses are satisfiable (clipped U(0,1) CDF, N = 3) *)

Definition Fclip (x : R) : R := Rmax 0 (Rmin 1 x).

Lemma Fclip_cases : forall y,
  (y <= 0 /\ Fclip y = 0) \/ (0 <= y <= 1 /\ Fclip y = y) \/ (1 <= y /\ Fclip y = 1).
Proof.
  intros y. unfold Fclip, Rmin, Rmax.
  destruct (Rle_dec 1 y); [destruct (Rle_dec 0 1)|destruct (Rle_dec 0 y)]; lra.
Qed.

Lemma Fclip_mono : mono Fclip.
Proof. intros x y Hxy. apply Rle_max_compat_l, Rle_min_compat_l, Hxy. Qed.

Lemma Fclip_range : forall x, 0 <= Fclip x <= 1.
Proof. intros x. destruct (Fclip_cases x) as [[A1 A2]|[[A1 A2]|[A1 A2]]]; lra. Qed.

Lemma Fclip_id : forall x, 0 <= x <= 1 -> Fclip x = x.
Proof. intros x Hx. destruct (Fclip_cases x) as [[A1 A2]|[[A1 A2]|[A1 A2]]]; lra. Qed.

(* relative perturbation 1/10 of the argument moves Fclip by at most (1/10)*(10/9) *)
Lemma Fclip_rel : forall x h, Rabs h <= (1 / 10) * Rabs x ->
  Rabs (Fclip (x + h) - Fclip x) <= (1 / 10) * (10 / 9).
Proof.
  intros x h Hh. apply Rabs_le_inv' in Hh. apply Rabs_le.
  revert Hh. unfold Rabs. destruct (Rcase_abs x); intros Hh;
  destruct (Fclip_cases x) as [[A1 A2]|[[A1 A2]|[A1 A2]]];
  destruct (Fclip_cases (x + h)) as [[B1 B2]|[[B1 B2]|[B1 B2]]]; lra.
Qed.

Definition ex_s : list R := [1 / 4; 1 / 2; 3 / 4].

Lemma ex_s_sorted : Sorted Rle ex_s.
Proof.
  unfold ex_s. repeat constructor; lra.
Qed.

Lemma ex_Dmax : Dmax ex_s Fclip = 1 / 4.
Proof.
  apply Rle_antisym.
  - apply maxl_le; [lra|]. intros i Hi. simpl in Hi.
    destruct i as [|[|[|i]]]; try lia; unfold dev, ex_s; simpl;
      rewrite Fclip_id by lra; apply Rmax_lub; apply Rabs_le; lra.
  - eapply Rle_trans; [|apply (Dmax_ge ex_s Fclip O); simpl; lia].
    unfold dev, ex_s. simpl. rewrite Fclip_id by lra.
    eapply Rle_trans; [|apply Rmax_r]. eapply Rle_trans; [|apply Rle_abs]. lra.
Qed.

Lemma ks_example_direct :
  mono Fclip /\ (forall x, 0 <= Fclip x <= 1) /\ ex_s <> [] /\ Sorted Rle ex_s /\
  Dmax ex_s Fclip = 1 / 4 /\
  forall x, Rabs (G ex_s x - Fclip x) <= 1 / 4.
Proof.
  split; [exact Fclip_mono|]. split; [exact Fclip_range|].
  split; [discriminate|]. split; [exact ex_s_sorted|]. split; [exact ex_Dmax|].
  intros x. rewrite <- ex_Dmax.
  apply ks_step_formula_abs;
    [exact Fclip_mono|exact Fclip_range|discriminate|exact ex_s_sorted].
Qed.

Lemma conj_cut : forall A B : Prop, A -> (A -> B) -> A /\ B.
Proof. intros A B a f. exact (conj a (f a)). Qed.

(* outputs computed with relative error <= 1/10 from the exact grid 1/3, 2/3, 1,
   quantile function T = identity *)
Definition ex_s2 : list R := [32 / 100; 7 / 10; 95 / 100].

Lemma ks_example_pointwise :
  let T := fun u : R => u in
  let delta := 1 / 10 in let M := 10 / 9 in
  Sorted Rle ex_s2 /\
  (forall k, (k < length ex_s2)%nat ->
     Fclip (T (INR (S k) / INR (length ex_s2))) = INR (S k) / INR (length ex_s2)) /\
  (forall k, (k < length ex_s2)%nat ->
     Rabs (nth k ex_s2 0 - T (INR (S k) / INR (length ex_s2)))
       <= delta * Rabs (T (INR (S k) / INR (length ex_s2)))) /\
  (forall x h, Rabs h <= delta * Rabs x -> Rabs (Fclip (x + h) - Fclip x) <= delta * M) /\
  forall x, Rabs (G ex_s2 x - Fclip x) <= 4 / 9.
Proof.
  intros T delta M.
  apply conj_cut; [unfold ex_s2; repeat constructor; lra|intros Hsorted].
  apply conj_cut; [|intros HT].
  { intros k Hk. unfold T. simpl length in *.
    destruct k as [|[|[|k]]]; try lia; simpl INR; apply Fclip_id; lra. }
  apply conj_cut; [|intros Hs].
  { intros k Hk. unfold T, delta. simpl length in *.
    destruct k as [|[|[|k]]]; try lia; simpl;
      rewrite (Rabs_pos_eq (_ / _)) by lra; apply Rabs_le; lra. }
  apply conj_cut; [exact Fclip_rel|intros HF].
  intros x.
  replace (4 / 9) with (1 / INR (length ex_s2) + delta * M)
    by (unfold delta, M; simpl; lra).
  apply (ks_from_pointwise_grid T Fclip ex_s2 delta M);
    [exact Fclip_mono|exact Fclip_range|discriminate|assumption..].
Qed.
