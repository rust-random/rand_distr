(* Proofs/UnitNormFl.v — property C12 at the IEEE level (Flocq, any binary format with prec + 3 <= emax; round to nearest
   even): the acceptance tests of UnitDisc and UnitBall (unit_disc.rs:47-52, unit_ball.rs:48-55) are computed in floats,
       x1*x1 + x2*x2 [+ x3*x3] <= 1,
   so an accepted candidate satisfies the float inequality; its REAL squared norm exceeds 1 by at most 4 u (disc) resp.
   6 u (ball), u = 2^-prec (2^-53 in binary64): the returned point has norm <= 1 + 3u.  No libm call is involved.        *)
From Coq Require Import Reals Lra Lia.
From Flocq Require Import Core.Core IEEE754.BinarySingleNaN.
From RD Require Import Proofs.AffineFl.
Open Scope R_scope.

Section Fmt.
Variable prec emax : Z.
Context (Hp : Prec_gt_0 prec) (Hpe : Prec_lt_emax prec emax).
Hypothesis Hpe2 : (prec + 3 <= emax)%Z.
Hypothesis Hp3 : (3 <= prec)%Z.
Notation float := (binary_float prec emax).
Notation rnd := (rnd prec emax).
Notation u := (u prec).
Notation eta := (eta prec emax).

Lemma u_small : 0 < u <= 1 / 8.
Proof.
  split; [apply u_pos|]. unfold AffineFl.u.
  assert (bpow radix2 (-3) = 1 / 8) as <-.
  { unfold bpow. change (Z.pow_pos radix2 3) with 8%Z. lra. }
  apply bpow_le. lia.
Qed.
Lemma eta_small : 0 < eta <= u * u.
Proof.
  split; [apply eta_pos|]. unfold AffineFl.eta, AffineFl.u, aemin. rewrite <- bpow_plus.
  apply Rle_trans with (bpow radix2 (3 - emax - prec)); [pose proof (bpow_gt_0 radix2 (3 - emax - prec)); lra|].
  apply bpow_le. lia.
Qed.

(* the real quantities behind the float tests *)
Definition disc_sum (x1 x2 : R) : R := rnd (rnd (x1 * x1) + rnd (x2 * x2)).
Definition ball_sum (x1 x2 x3 : R) : R := rnd (disc_sum x1 x2 + rnd (x3 * x3)).

(* one accumulation step fl(A + fl(c)), A >= 0 enclosed in [L, U], c >= 0: both roundings scale by 1 -+ u and lose eta *)
Lemma rnd_add_encl (A c L U : R) : 0 <= A -> 0 <= c -> L <= A <= U ->
  0 <= rnd (A + rnd c) /\
  (L + c * (1 - u)) * (1 - u) - 2 * eta <= rnd (A + rnd c) <= (U + c * (1 + u)) * (1 + u) + 3 * eta.
Proof.
  intros HA Hc HLU. pose proof u_small as [U0 U1]. pose proof eta_small as [E0 E1].
  pose proof (rnd_encl prec emax Hp c Hc) as Ec. pose proof (rnd_nonneg prec emax Hp c Hc) as Nc.
  set (rc := rnd c) in * . pose proof (rnd_encl prec emax Hp (A + rc) ltac:(lra)) as Es.
  split; [apply (rnd_nonneg prec emax Hp); lra|].
  assert ((L + c * (1 - u) - eta) * (1 - u) <= (A + rc) * (1 - u)) as M1 by (apply Rmult_le_compat_r; lra).
  assert ((A + rc) * (1 + u) <= (U + c * (1 + u) + eta) * (1 + u)) as M2 by (apply Rmult_le_compat_r; lra).
  assert (0 <= eta * u <= eta * 1) as M3 by (split; [apply Rmult_le_pos|apply Rmult_le_compat_l]; lra). split; lra.
Qed.

Lemma disc_sum_encl (x1 x2 : R) : 0 <= disc_sum x1 x2 /\
  (x1 * x1 + x2 * x2) * (1 - u) * (1 - u) - 3 * eta <= disc_sum x1 x2
    <= (x1 * x1 + x2 * x2) * (1 + u) * (1 + u) + 5 * eta.
Proof.
  pose proof u_small as [U0 U1]. pose proof eta_small as [E0 E1].
  assert (0 <= x1 * x1) as S1 by nra. assert (0 <= x2 * x2) as S2 by nra.
  destruct (rnd_add_encl _ _ _ _ (rnd_nonneg prec emax Hp _ S1) S2 (rnd_encl prec emax Hp _ S1)) as (N & L & U).
  fold (disc_sum x1 x2) in N, L, U. split; [exact N|]. split; nra.
Qed.

Lemma ball_sum_encl (x1 x2 x3 : R) : 0 <= ball_sum x1 x2 x3 /\
  (x1 * x1 + x2 * x2 + x3 * x3) * (1 - u) * (1 - u) * (1 - u) - 5 * eta <= ball_sum x1 x2 x3
    <= (x1 * x1 + x2 * x2 + x3 * x3) * (1 + u) * (1 + u) * (1 + u) + 9 * eta.
Proof.
  pose proof u_small as [U0 U1]. pose proof eta_small as [E0 E1].
  assert (0 <= x3 * x3) as S3 by nra. destruct (disc_sum_encl x1 x2) as (N2 & E2).
  destruct (rnd_add_encl _ _ _ _ N2 S3 E2) as (N & L & U).
  fold (ball_sum x1 x2 x3) in N, L, U. split; [exact N|].
  (* the third square is scaled twice only: c d^3 <= c d^2 for d = 1 - u, c e^2 <= c e^3 for e = 1 + u *)
  set (c := x3 * x3) in * . set (d := 1 - u) in * . set (e := 1 + u) in * .
  assert (0 <= d <= 1) as Hd by (unfold d; lra). assert (1 <= e <= 1 + 1 / 8) as He by (unfold e; lra).
  assert (0 <= c * d * d) as P1 by (apply Rmult_le_pos; [apply Rmult_le_pos|]; lra).
  assert (0 <= c * e * e) as P2 by (apply Rmult_le_pos; [apply Rmult_le_pos|]; lra).
  pose proof (Rmult_le_compat_l _ d 1 P1 (proj2 Hd)) as M1. pose proof (Rmult_le_compat_l _ 1 e P2 (proj1 He)) as M2.
  pose proof (Rmult_le_compat_l eta d 1 ltac:(lra) (proj2 Hd)) as M3.
  pose proof (Rmult_le_compat_l eta e _ ltac:(lra) (proj2 He)) as M4.
  split; lra.
Qed.

(* with eta <= u^2 and u <= 1/8:  1 + 3u^2 <= (1 + 4u)(1 - u)^2  and  1 + 5u^2 <= (1 + 6u)(1 - u)^3 *)
Theorem disc_real_norm x1 x2 : disc_sum x1 x2 <= 1 -> x1 * x1 + x2 * x2 <= 1 + 4 * u.
Proof.
  intros H. destruct (disc_sum_encl x1 x2) as (_ & L & _). pose proof u_small as [U0 U1]. pose proof eta_small as [E0 E1].
  apply Rmult_le_reg_r with ((1 - u) * (1 - u)); nra.
Qed.

Theorem ball_real_norm x1 x2 x3 : ball_sum x1 x2 x3 <= 1 -> x1 * x1 + x2 * x2 + x3 * x3 <= 1 + 6 * u.
Proof.
  intros H. destruct (ball_sum_encl x1 x2 x3) as (_ & L & _). pose proof u_small as [U0 U1]. pose proof eta_small as [E0 E1].
  apply Rmult_le_reg_r with ((1 - u) * (1 - u) * (1 - u)); nra.
Qed.

Definition sq_fl (x : float) : float := Bmult mode_NE x x.
Definition disc_sum_fl (x1 x2 : float) : float := Bplus mode_NE (sq_fl x1) (sq_fl x2).
Definition ball_sum_fl (x1 x2 x3 : float) : float := Bplus mode_NE (disc_sum_fl x1 x2) (sq_fl x3).
Definition disc_accept_fl (x1 x2 : float) : bool := Bleb (disc_sum_fl x1 x2) Bone.
Definition ball_accept_fl (x1 x2 x3 : float) : bool := Bleb (ball_sum_fl x1 x2 x3) Bone.

(* a rounded square of x in [-1, 1] stays in [0, 1], the sums below 2 and 3: no overflow *)
Lemma rnd_sq_unit x : Rabs x <= 1 -> 0 <= rnd (x * x) <= 1.
Proof. intros H. apply Rabs_le_inv in H. apply (rnd_range prec emax Hp Hpe _ 0 (Z.le_refl 0)). simpl. split; nra. Qed.

Lemma sq_fl_value (x : float) : is_finite x = true -> Rabs (B2R x) <= 1 ->
  B2R (sq_fl x) = rnd (B2R x * B2R x) /\ is_finite (sq_fl x) = true.
Proof.
  intros Fx Hx. apply (Bmult_value prec emax Hp Hpe x x Fx Fx). pose proof (rnd_sq_unit _ Hx) as R.
  apply Rle_lt_trans with (bpow radix2 0); [rewrite Rabs_pos_eq; apply R|apply bpow_lt; lia].
Qed.

Lemma disc_sum_fl_value (x1 x2 : float) : is_finite x1 = true -> is_finite x2 = true -> Rabs (B2R x1) <= 1 -> Rabs (B2R x2) <= 1 ->
  B2R (disc_sum_fl x1 x2) = disc_sum (B2R x1) (B2R x2) /\ is_finite (disc_sum_fl x1 x2) = true /\
  0 <= disc_sum (B2R x1) (B2R x2) <= 3.
Proof.
  intros F1 F2 H1 H2. destruct (sq_fl_value x1 F1 H1) as [V1 G1]. destruct (sq_fl_value x2 F2 H2) as [V2 G2].
  pose proof (rnd_sq_unit _ H1) as A. pose proof (rnd_sq_unit _ H2) as B. assert (0 <= 1)%Z as Z1 by lia.
  assert (0 <= rnd (B2R x1 * B2R x1) + rnd (B2R x2 * B2R x2) <= bpow radix2 1) as Q by (simpl; lra).
  pose proof (rnd_range prec emax Hp Hpe _ 1 Z1 Q) as S. simpl (bpow radix2 1) in S.
  unfold disc_sum. rewrite <- V1, <- V2 in Q, S |- * .
  destruct (Bplus_value prec emax Hp Hpe _ _ G1 G2) as [V G]; [|split; [exact V|split; [exact G|lra]]].
  apply (no_ovf prec emax Hp Hpe _ 1 Z1); [lia|rewrite Rabs_pos_eq; apply Q].
Qed.

Lemma ball_sum_fl_value (x1 x2 x3 : float) : is_finite x1 = true -> is_finite x2 = true -> is_finite x3 = true ->
  Rabs (B2R x1) <= 1 -> Rabs (B2R x2) <= 1 -> Rabs (B2R x3) <= 1 ->
  B2R (ball_sum_fl x1 x2 x3) = ball_sum (B2R x1) (B2R x2) (B2R x3) /\ is_finite (ball_sum_fl x1 x2 x3) = true.
Proof.
  intros F1 F2 F3 H1 H2 H3. destruct (disc_sum_fl_value x1 x2 F1 F2 H1 H2) as (V12 & G12 & S).
  destruct (sq_fl_value x3 F3 H3) as [V3 G3]. pose proof (rnd_sq_unit _ H3) as B.
  unfold ball_sum. rewrite <- V12 in S |- * . rewrite <- V3 in B |- * . apply (Bplus_value prec emax Hp Hpe _ _ G12 G3).
  apply (no_ovf prec emax Hp Hpe _ 2); [lia..|]. simpl. rewrite Rabs_pos_eq; lra.
Qed.

Lemma Bleb_one (s : float) : is_finite s = true -> Bleb s Bone = Rle_bool (B2R s) 1.
Proof.
  intros F. rewrite (Bleb_correct prec emax _ _ F (is_finite_Bone prec emax Hp Hpe)), (Bone_correct prec emax Hp Hpe).
  reflexivity.
Qed.

(* An accepted UnitDisc candidate: finite coordinates in [-1, 1] (what Uniform::new(-1, 1) returns), float test true. *)
Theorem disc_accept_fl_norm (x1 x2 : float) :
  is_finite x1 = true -> is_finite x2 = true -> Rabs (B2R x1) <= 1 -> Rabs (B2R x2) <= 1 ->
  disc_accept_fl x1 x2 = true ->
  B2R x1 * B2R x1 + B2R x2 * B2R x2 <= 1 + 4 * u.
Proof.
  intros F1 F2 H1 H2 A. destruct (disc_sum_fl_value x1 x2 F1 F2 H1 H2) as (V & G & _).
  unfold disc_accept_fl in A. rewrite (Bleb_one _ G), V in A. apply disc_real_norm.
  destruct (Rle_bool_spec (disc_sum (B2R x1) (B2R x2)) 1) as [L|L]; [exact L|discriminate].
Qed.

Theorem ball_accept_fl_norm (x1 x2 x3 : float) :
  is_finite x1 = true -> is_finite x2 = true -> is_finite x3 = true ->
  Rabs (B2R x1) <= 1 -> Rabs (B2R x2) <= 1 -> Rabs (B2R x3) <= 1 ->
  ball_accept_fl x1 x2 x3 = true ->
  B2R x1 * B2R x1 + B2R x2 * B2R x2 + B2R x3 * B2R x3 <= 1 + 6 * u.
Proof.
  intros F1 F2 F3 H1 H2 H3 A. destruct (ball_sum_fl_value x1 x2 x3 F1 F2 F3 H1 H2 H3) as (V & G).
  unfold ball_accept_fl in A. rewrite (Bleb_one _ G), V in A. apply ball_real_norm.
  destruct (Rle_bool_spec (ball_sum (B2R x1) (B2R x2) (B2R x3)) 1) as [L|L]; [exact L|discriminate].
Qed.


(* converse: no false rejection below a thin shell:
   (1 - 4u)(1 + u)^2 + 5u^2 <= 1  and  (1 - 6u)(1 + u)^3 + 9u^2 <= 1 *)
Theorem disc_real_accept x1 x2 : x1 * x1 + x2 * x2 <= 1 - 4 * u -> disc_sum x1 x2 <= 1.
Proof.
  intros H. destruct (disc_sum_encl x1 x2) as (_ & _ & U). pose proof u_small as [U0 U1]. pose proof eta_small as [E0 E1].
  nra.
Qed.

Theorem ball_real_accept x1 x2 x3 : x1 * x1 + x2 * x2 + x3 * x3 <= 1 - 6 * u -> ball_sum x1 x2 x3 <= 1.
Proof.
  intros H. destruct (ball_sum_encl x1 x2 x3) as (_ & _ & U). pose proof u_small as [U0 U1]. pose proof eta_small as [E0 E1].
  nra.
Qed.

Theorem disc_accept_fl_complete (x1 x2 : float) :
  is_finite x1 = true -> is_finite x2 = true -> Rabs (B2R x1) <= 1 -> Rabs (B2R x2) <= 1 ->
  B2R x1 * B2R x1 + B2R x2 * B2R x2 <= 1 - 4 * u -> disc_accept_fl x1 x2 = true.
Proof.
  intros F1 F2 H1 H2 A. destruct (disc_sum_fl_value x1 x2 F1 F2 H1 H2) as (V & G & _).
  unfold disc_accept_fl. rewrite (Bleb_one _ G), V. apply Rle_bool_true, disc_real_accept, A.
Qed.

Theorem ball_accept_fl_complete (x1 x2 x3 : float) :
  is_finite x1 = true -> is_finite x2 = true -> is_finite x3 = true ->
  Rabs (B2R x1) <= 1 -> Rabs (B2R x2) <= 1 -> Rabs (B2R x3) <= 1 ->
  B2R x1 * B2R x1 + B2R x2 * B2R x2 + B2R x3 * B2R x3 <= 1 - 6 * u -> ball_accept_fl x1 x2 x3 = true.
Proof.
  intros F1 F2 F3 H1 H2 H3 A. destruct (ball_sum_fl_value x1 x2 x3 F1 F2 F3 H1 H2 H3) as (V & G).
  unfold ball_accept_fl. rewrite (Bleb_one _ G), V. apply Rle_bool_true, ball_real_accept, A.
Qed.
End Fmt.
