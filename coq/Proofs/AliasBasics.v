(* Proofs/AliasBasics.v — list, sum and counting lemmas used by the alias-table proofs *)
From Coq Require Import ZArith List Lia Permutation.
From RD Require Import Model.Alias.
Import ListNotations.
Open Scope Z_scope.

Lemma seti_length : forall l i v, length (seti l i v) = length l.
Proof. induction l; intros [|i] v; simpl; auto. Qed.

Lemma geti_seti_same : forall l i v, (i < length l)%nat -> geti (seti l i v) i = v.
Proof.
  unfold geti. induction l; intros [|i] v H; simpl in *; try lia; auto.
  apply IHl; lia.
Qed.

Lemma geti_seti_other : forall l i j v, i <> j -> geti (seti l i v) j = geti l j.
Proof.
  unfold geti. induction l; intros [|i] [|j] v H; simpl; auto; try congruence.
Qed.

Lemma seti_id : forall l i v, geti l i = v -> seti l i v = l.
Proof. unfold geti. intros l i v <-. revert i. induction l; intros [|i]; simpl; auto. f_equal. apply IHl. Qed.

Lemma fold_seti_id : forall v l o, (forall i, In i l -> geti o i = v) ->
  fold_left (fun o i => seti o i v) l o = o.
Proof.
  induction l; intros o H. reflexivity.
  cbn [fold_left]. rewrite seti_id by (apply H; left; auto). apply IHl. intros; apply H; right; auto.
Qed.

Lemma geti_overflow : forall l i, (length l <= i)%nat -> geti l i = 0.
Proof. intros. apply nth_overflow; auto. Qed.

Lemma geti_map : forall (f : Z -> Z) l i, f 0 = 0 -> geti (map f l) i = f (geti l i).
Proof. intros f l i H. unfold geti. rewrite <- H at 1. apply map_nth. Qed.

Lemma map_nth_seq : forall (l : list Z) d, map (fun j => nth j l d) (seq 0 (length l)) = l.
Proof.
  induction l; intros d; simpl; auto. f_equal.
  rewrite <- seq_shift, map_map. apply IHl.
Qed.

Lemma perm_seq_elt : forall l1 a l2 N, Permutation (l1 ++ a :: l2) (seq 0 N) ->
  (a < N)%nat /\ ~ In a (l1 ++ l2).
Proof.
  intros l1 a l2 N H. split.
  - apply (Permutation_in a) in H. apply in_seq in H; lia. apply in_elt.
  - apply NoDup_remove_2, (Permutation_NoDup (Permutation_sym H)), seq_NoDup.
Qed.

Definition zsumf (f : nat -> Z) (l : list nat) : Z := fold_right (fun j a => f j + a) 0 l.

Lemma zsumf_nil : forall f, zsumf f [] = 0.
Proof. reflexivity. Qed.

Lemma zsumf_cons : forall f a l, zsumf f (a :: l) = f a + zsumf f l.
Proof. reflexivity. Qed.

Lemma zsumf_app : forall f l1 l2, zsumf f (l1 ++ l2) = zsumf f l1 + zsumf f l2.
Proof. induction l1; intros; simpl app; rewrite ?zsumf_cons, ?zsumf_nil, ?IHl1; lia. Qed.

Lemma zsumf_perm : forall f l1 l2, Permutation l1 l2 -> zsumf f l1 = zsumf f l2.
Proof. induction 1; rewrite ?zsumf_cons in *; lia. Qed.

Lemma zsumf_ext : forall f g l, (forall j, In j l -> f j = g j) -> zsumf f l = zsumf g l.
Proof.
  induction l; intros H; auto.
  rewrite !zsumf_cons, (H a (or_introl eq_refl)), IHl; auto.
  intros; apply H; right; auto.
Qed.

Lemma zsumf_seti : forall o b v l, ~ In b l -> zsumf (geti (seti o b v)) l = zsumf (geti o) l.
Proof. intros o b v l H. apply zsumf_ext. intros j Hj. apply geti_seti_other. intros <-. auto. Qed.

Lemma zsumf_map : forall f (g : nat -> nat) l, zsumf f (map g l) = zsumf (fun x => f (g x)) l.
Proof. induction l; auto. simpl map. rewrite !zsumf_cons, IHl. auto. Qed.

Lemma zsumf_add : forall f g l, zsumf (fun c => f c + g c) l = zsumf f l + zsumf g l.
Proof. induction l. reflexivity. rewrite !zsumf_cons, IHl. lia. Qed.

Lemma zsumf_const : forall (b : Z) l, zsumf (fun _ => b) l = b * Z.of_nat (length l).
Proof. induction l. simpl; lia. rewrite zsumf_cons, IHl. simpl length. lia. Qed.

Lemma zsumf_le : forall f g l, (forall j, In j l -> f j <= g j) -> zsumf f l <= zsumf g l.
Proof.
  induction l; intros H. reflexivity.
  rewrite !zsumf_cons. pose proof (H a (or_introl eq_refl)).
  assert (zsumf f l <= zsumf g l) by (apply IHl; intros; apply H; right; auto). lia.
Qed.

Lemma zsumf_le_eq : forall f g l, (forall j, In j l -> f j <= g j) -> zsumf f l = zsumf g l ->
  forall j, In j l -> f j = g j.
Proof.
  induction l; intros H E j Hj. destruct Hj.
  rewrite !zsumf_cons in E. pose proof (H a (or_introl eq_refl)).
  assert (Hl : forall j, In j l -> f j <= g j) by (intros; apply H; right; auto).
  pose proof (zsumf_le f g l Hl).
  destruct Hj as [<-|Hj]. lia. apply IHl; auto. lia.
Qed.

Lemma zsumf_zero : forall f l, (forall j, In j l -> f j = 0) -> zsumf f l = 0.
Proof. intros f l H. rewrite (zsumf_ext f (fun _ => 0)), zsumf_const by exact H. lia. Qed.

Lemma zsumf_nonneg : forall f l, (forall j, In j l -> 0 <= f j) -> 0 <= zsumf f l.
Proof. intros f l H. apply zsumf_le in H. rewrite zsumf_const in H. lia. Qed.

Lemma zsumf_zero_inv : forall f l, (forall j, In j l -> 0 <= f j) -> zsumf f l = 0 ->
  forall j, In j l -> f j = 0.
Proof.
  intros f l H E j Hj. symmetry. apply (zsumf_le_eq (fun _ => 0) f l); auto.
  rewrite zsumf_const. lia.
Qed.

Lemma zsumf_le_term : forall f l, (forall j, In j l -> 0 <= f j) ->
  forall j, In j l -> f j <= zsumf f l.
Proof.
  intros f l H j Hj. destruct (in_split j l Hj) as (l1 & l2 & ->).
  rewrite zsumf_app, zsumf_cons.
  assert (0 <= zsumf f l1) by (apply zsumf_nonneg; intros; apply H, in_or_app; auto).
  assert (0 <= zsumf f l2) by (apply zsumf_nonneg; intros; apply H, in_or_app; simpl; auto).
  lia.
Qed.

Lemma zsumf_indicator : forall (g : nat -> Z) i l, NoDup l -> In i l ->
  zsumf (fun c => if Nat.eqb c i then g c else 0) l = g i.
Proof.
  intros g i l ND Hi. destruct (in_split i l Hi) as (l1 & l2 & ->).
  apply NoDup_remove_2 in ND. rewrite zsumf_app, zsumf_cons, Nat.eqb_refl, !zsumf_zero. lia.
  all: intros j Hj; destruct (Nat.eqb_spec j i) as [->|]; auto;
    destruct ND; apply in_or_app; auto.
Qed.

Definition asum (ws : list Z) : Z := fold_right Z.add 0 ws.

Lemma asum_cons : forall a l, asum (a :: l) = a + asum l.
Proof. reflexivity. Qed.

Lemma zsumf_geti_seq : forall l, zsumf (geti l) (seq 0 (length l)) = asum l.
Proof.
  induction l. reflexivity.
  cbn [length seq]. rewrite zsumf_cons, <- seq_shift, zsumf_map, asum_cons, <- IHl. reflexivity.
Qed.

Lemma asum_map_scale : forall (k : Z) l, asum (map (fun w => w * k) l) = asum l * k.
Proof. induction l. reflexivity. cbn [map]. rewrite !asum_cons, IHl. lia. Qed.

Lemma asum_nonneg : forall l, (forall w, In w l -> 0 <= w) -> 0 <= asum l.
Proof.
  induction l; intros H. reflexivity.
  rewrite asum_cons. pose proof (H a (or_introl eq_refl)).
  assert (0 <= asum l) by (apply IHl; intros; apply H; right; auto). lia.
Qed.

Lemma asum_le_all : forall (m : Z) l, (forall w, In w l -> w <= m) -> asum l <= Z.of_nat (length l) * m.
Proof.
  induction l; intros H. reflexivity.
  rewrite asum_cons. pose proof (H a (or_introl eq_refl)).
  assert (asum l <= Z.of_nat (length l) * m) by (apply IHl; intros; apply H; right; auto).
  simpl length. lia.
Qed.

Lemma asum_zero_all : forall l, (forall w, In w l -> 0 <= w) -> asum l = 0 -> forall w, In w l -> w = 0.
Proof.
  induction l; intros H E w Hw. destruct Hw.
  rewrite asum_cons in E. pose proof (H a (or_introl eq_refl)).
  assert (0 <= asum l) by (apply asum_nonneg; intros; apply H; right; auto).
  destruct Hw as [->|Hw]. lia. apply IHl; auto. intros; apply H; right; auto. lia.
Qed.

Definition countz (p : nat -> bool) (k : nat) : Z := Z.of_nat (length (filter p (seq 0 k))).

Lemma countz_0 : forall p, countz p 0 = 0.
Proof. reflexivity. Qed.

Lemma countz_S : forall p k, countz p (S k) = countz p k + (if p k then 1 else 0).
Proof.
  intros. unfold countz. rewrite seq_S, filter_app, app_length. simpl.
  destruct (p k); simpl; lia.
Qed.

Lemma countz_split : forall (x y z : Z) k a, 0 <= a ->
  countz (fun r => (if Z.of_nat r <? a then x else y) =? z) k =
  (if x =? z then Z.min a (Z.of_nat k) else 0) +
  (if y =? z then Z.of_nat k - Z.min a (Z.of_nat k) else 0).
Proof.
  induction k; intros a Ha. rewrite countz_0. destruct (x =? z), (y =? z); lia.
  rewrite countz_S, IHk by auto.
  destruct (Z.ltb_spec (Z.of_nat k) a), (x =? z), (y =? z); lia.
Qed.
