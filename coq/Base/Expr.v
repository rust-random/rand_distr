(* Base/Expr.v — deep-embedded closed real expressions, their exact semantics in the
   extended reals, and a verified interval evaluator built from Coq-Interval's operations
   (each of which comes with a containment theorem); every rounded float operation of the
   implementation is covered by widening the node's enclosure by a relative error.      *)
From Coq Require Import Reals ZArith List Lra Lia.
From Interval Require Import Specific_bigint Specific_ops Float_full Float Xreal Basic Interval.
From Flocq Require Import Core.
From Bignums Require Import BigZ.

Module F := SpecificFloat BigIntRadix2.
Module I := FloatIntervalFull F.

Inductive uop := Neg | Abs | Sqrt | Exp | Ln | Tan | Atan | Floor | Sqr | Ln1p | Expm1 | Id.
Inductive bop := Add | Sub | Mul | Div | Pow.

(* Dy m e = m * 2^e, exact: float parameters and uniform draws *)
Inductive expr :=
| Dy (m e : Z)
| Pi
| Un (o : uop) (a : expr)
| Bin (o : bop) (a b : expr)
| Exact (a : expr).       (* an operation the implementation performs without rounding: no widening below *)

Definition Xpow (x y : ExtendedR) : ExtendedR := Xexp (Xmul y (Xln x)).

Definition xun (o : uop) : ExtendedR -> ExtendedR :=
  match o with
  | Neg => Xneg | Abs => Xabs | Sqrt => Xsqrt | Exp => Xexp | Ln => Xln | Tan => Xtan | Atan => Xatan
  | Floor => Xlift (Rnearbyint rnd_DN) | Sqr => Xsqr
  | Ln1p => fun x => Xln (Xadd (Xreal 1) x)
  | Expm1 => fun x => Xsub (Xexp x) (Xreal 1)
  | Id => fun x => x
  end.
Definition xbin (o : bop) : ExtendedR -> ExtendedR -> ExtendedR :=
  match o with Add => Xadd | Sub => Xsub | Mul => Xmul | Div => Xdiv | Pow => Xpow end.

Definition xdy (m e : Z) : ExtendedR := Xmul (Xreal (IZR m)) (Xpower_int (Xreal 2) e).

Fixpoint evalX (e : expr) : ExtendedR :=
  match e with
  | Dy m x => xdy m x
  | Pi => Xreal PI
  | Un o a => xun o (evalX a)
  | Bin o a b => xbin o (evalX a) (evalX b)
  | Exact a => evalX a
  end.

Lemma xdy_real m e : xdy m e = Xreal (IZR m * powerRZ 2 e).
Proof.
  unfold xdy. destruct e as [|q|q]; cbn [Xpower_int Xbind Xpower_int' Xmul].
  - f_equal. simpl. reflexivity.
  - f_equal.
  - unfold is_zero. rewrite Raux.Req_bool_false by lra. cbn [Xmul]. f_equal.
Qed.

Section Eval.
Variable prec : F.precision.
(* widening: a node whose implementation counterpart is a rounded float operation carries a
   relative error of at most k * 2^-p (p = 24 or 53) plus an absolute error 2^eta *)
Variable p : Z.
Variable eta : Z.

Definition idy (m e : Z) : I.type := I.mul prec (I.fromZ prec m) (I.power_int prec (I.fromZ prec 2) e).

Lemma idy_correct m e : contains (I.convert (idy m e)) (xdy m e).
Proof. unfold idy, xdy. apply I.mul_correct; [apply I.fromZ_correct|].
  apply I.power_int_correct. apply I.fromZ_correct. Qed.

Definition widen (k : Z) (i : I.type) : I.type :=
  let r := I.join i (I.join (I.mul prec i (idy (2^p - k) (- p))) (I.mul prec i (idy (2^p + k) (- p)))) in
  I.join r (I.join (I.sub prec r (idy 1 eta)) (I.add prec r (idy 1 eta))).

Lemma widen_correct k i x : contains (I.convert i) x -> contains (I.convert (widen k i)) x.
Proof. intros H. unfold widen. apply I.join_correct. left. apply I.join_correct. left. exact H. Qed.

(* Interval's tan only covers enclosures inside (-pi/2, pi/2): use the period pi *)
Definition itan (i : I.type) : I.type :=
  match I.tan prec i with
  | Float.Inan =>
    match I.tan prec (I.sub prec i (I.pi prec)) with
    | Float.Inan => I.tan prec (I.add prec i (I.pi prec))
    | r => r
    end
  | r => r
  end.

Lemma Xtan_shift x k : (k = PI \/ k = - PI)%R -> Xtan (Xadd x (Xreal k)) = Xtan x.
Proof.
  intros Hk. destruct x as [|r]; [reflexivity|]. cbn [Xadd Xbind]. unfold Xtan'.
  assert (C : cos (r + k) = (- cos r)%R /\ sin (r + k) = (- sin r)%R).
  { destruct Hk as [->| ->].
    - split; [apply neg_cos|apply neg_sin].
    - pose proof (neg_cos (r + - PI)) as A. pose proof (neg_sin (r + - PI)) as B.
      replace (r + - PI + PI)%R with r in A, B by ring. split; lra. }
  destruct C as [C1 C2]. unfold is_zero. unfold tan. rewrite C1, C2.
  destruct (Req_dec (cos r) 0) as [Z|NZ].
  - rewrite !Raux.Req_bool_true by lra. reflexivity.
  - rewrite !Raux.Req_bool_false by lra. f_equal. field. exact NZ.
Qed.

Lemma itan_correct : I.extension Xtan itan.
Proof.
  intros i x H. unfold itan.
  destruct (I.tan prec i) eqn:E1.
  - destruct (I.tan prec (I.sub prec i (I.pi prec))) eqn:E2.
    + rewrite <- (Xtan_shift x PI) by auto. apply I.tan_correct.
      apply I.add_correct; [exact H|apply I.pi_correct].
    + rewrite <- E2. rewrite <- (Xtan_shift x (- PI)) by auto. apply I.tan_correct.
      replace (Xadd x (Xreal (- PI))) with (Xsub x (Xreal PI)) by (destruct x; reflexivity).
      apply I.sub_correct; [exact H|apply I.pi_correct].
  - rewrite <- E1. now apply I.tan_correct.
Qed.

Definition iun (o : uop) : I.type -> I.type :=
  match o with
  | Neg => I.neg | Abs => I.abs | Sqrt => I.sqrt prec | Exp => I.exp prec | Ln => I.ln prec
  | Tan => itan | Atan => I.atan prec | Floor => I.nearbyint rnd_DN | Sqr => I.sqr prec
  | Ln1p => fun i => I.ln prec (I.add prec (I.fromZ prec 1) i)
  | Expm1 => fun i => I.sub prec (I.exp prec i) (I.fromZ prec 1)
  | Id => fun i => i
  end.
Definition ipow (a b : I.type) : I.type := I.exp prec (I.mul prec b (I.ln prec a)).
Definition ibin (o : bop) : I.type -> I.type -> I.type :=
  match o with Add => I.add prec | Sub => I.sub prec | Mul => I.mul prec | Div => I.div prec | Pow => ipow end.

(* relative error allowed per operation, in units of 2^-p:
   1 (= 0.5 ulp worst case) for IEEE + - * / sqrt, 4 (2 ulp) for exp/ln/ln_1p/exp_m1,
   8 (4 ulp) for powf/tan/atan; neg/abs/floor are exact *)
Definition ku (o : uop) : Z :=
  match o with Neg | Abs | Floor => 0 | Id | Sqrt | Sqr => 1 | Exp | Ln | Ln1p | Expm1 => 4 | Tan | Atan => 8 end.
Definition kb (o : bop) : Z := match o with Pow => 8 | _ => 1 end.

(* w = true: widened (float-aware) evaluation; w = false: plain enclosure of the real value *)
Fixpoint evalI (w : bool) (e : expr) : I.type :=
  match e with
  | Dy m x => idy m x
  | Pi => if w then widen 1 (I.pi prec) else I.pi prec
  | Un o a => let r := iun o (evalI w a) in if w then (if (ku o =? 0)%Z then r else widen (ku o) r) else r
  | Bin o a b => let r := ibin o (evalI w a) (evalI w b) in if w then widen (kb o) r else r
  | Exact a => evalI false a
  end.

Lemma iun_correct o : I.extension (xun o) (iun o).
Proof. destruct o; cbn [xun iun].
  - apply I.neg_correct. - apply I.abs_correct. - apply I.sqrt_correct. - apply I.exp_correct.
  - apply I.ln_correct. - apply itan_correct. - apply I.atan_correct. - apply I.nearbyint_correct.
  - apply I.sqr_correct.
  - intros b x H. apply I.ln_correct. apply I.add_correct; [apply I.fromZ_correct|exact H].
  - intros b x H. apply I.sub_correct; [apply I.exp_correct; exact H|apply I.fromZ_correct].
  - intros b x H; exact H.
Qed.
Lemma ibin_correct o : I.extension_2 (xbin o) (ibin o).
Proof. destruct o; cbn [xbin ibin].
  - apply I.add_correct. - apply I.sub_correct. - apply I.mul_correct. - apply I.div_correct.
  - intros ia ib a b Ha Hb. unfold ipow, Xpow. apply I.exp_correct. apply I.mul_correct; auto.
    apply I.ln_correct; auto.
Qed.

Theorem evalI_sound : forall e w, contains (I.convert (evalI w e)) (evalX e).
Proof.
  induction e as [m x| |o a IH|o a IHa b IHb|a IH]; intros w; cbn [evalI evalX].
  - apply idy_correct.
  - destruct w; [apply widen_correct|]; apply I.pi_correct.
  - pose proof (iun_correct o _ _ (IH w)) as H. destruct w; auto. destruct (ku o =? 0)%Z; auto.
    now apply widen_correct.
  - pose proof (ibin_correct o _ _ _ _ (IHa w) (IHb w)) as H. destruct w; auto. now apply widen_correct.
  - apply IH.
Qed.

Inductive tri := TT | TF | TU.

Definition ilt (ia ib : I.type) : tri :=
  match I.sign_strict (I.sub prec ib ia) with Xgt => TT | Xlt | Xeq => TF | Xund => TU end.
Definition ile (ia ib : I.type) : tri :=
  match I.sign_strict (I.sub prec ia ib) with Xgt => TF | Xlt | Xeq => TT | Xund => TU end.

Lemma ilt_correct ia ib a b : contains (I.convert ia) (Xreal a) -> contains (I.convert ib) (Xreal b) ->
  match ilt ia ib with TT => (a < b)%R | TF => ~ (a < b)%R | TU => True end.
Proof.
  intros Ha Hb. unfold ilt. pose proof (I.sub_correct prec _ _ _ _ Hb Ha) as H. cbn [Xsub] in H.
  pose proof (I.sign_strict_correct (I.sub prec ib ia)) as S.
  destruct (I.sign_strict (I.sub prec ib ia)); auto.
  - specialize (S _ H). inversion S. lra.
  - destruct (S _ H) as [_ S2]. cbn in S2. lra.
  - destruct (S _ H) as [_ S2]. cbn in S2. lra.
Qed.
Lemma ile_correct ia ib a b : contains (I.convert ia) (Xreal a) -> contains (I.convert ib) (Xreal b) ->
  match ile ia ib with TT => (a <= b)%R | TF => ~ (a <= b)%R | TU => True end.
Proof.
  intros Ha Hb. unfold ile. pose proof (I.sub_correct prec _ _ _ _ Ha Hb) as H. cbn [Xsub] in H.
  pose proof (I.sign_strict_correct (I.sub prec ia ib)) as S.
  destruct (I.sign_strict (I.sub prec ia ib)); auto.
  - specialize (S _ H). inversion S. lra.
  - destruct (S _ H) as [_ S2]. cbn in S2. lra.
  - destruct (S _ H) as [_ S2]. cbn in S2. lra.
Qed.

Definition inside (i : I.type) (m e : Z) : bool := I.subset (idy m e) i.
Lemma inside_correct i m e : inside i m e = true -> contains (I.convert i) (xdy m e).
Proof. intros H. eapply I.subset_correct; [apply idy_correct|exact H]. Qed.

End Eval.
