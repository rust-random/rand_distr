(* Base/Run.v — sampler models are decision trees over closed real expressions.
   interpI explores a tree with verified interval decisions (forking on undecidable
   comparisons); `evals` is the exact real-number semantics.                          *)
From Coq Require Import Reals ZArith List Lra Lia Bool.
From Interval Require Import Xreal Interval.
From Flocq Require Import Core.
From RD Require Import Base.Expr.
Import ListNotations.

Inductive cmpop := CLt | CLe | CGt | CGe.

Inductive run (A : Type) : Type :=
| Ret (a : A)
| Ask (c : cmpop) (a b : expr) (k : bool -> run A)      (* branch on  a c b  *)
| AskFloor (e : expr) (k : Z -> run A)                  (* continue with floor(e) as an integer *)
| Fail (code : Z).                                       (* panic / fuel or words exhausted / undefined *)
Arguments Ret {A} a. Arguments Ask {A} c a b k. Arguments AskFloor {A} e k. Arguments Fail {A} code.

Fixpoint bind {A B} (r : run A) (f : A -> run B) : run B :=
  match r with
  | Ret a => f a
  | Ask c a b k => Ask c a b (fun t => bind (k t) f)
  | AskFloor e k => AskFloor e (fun z => bind (k z) f)
  | Fail c => Fail c
  end.

Definition rcmp (c : cmpop) (x y : R) : bool :=
  match c with
  | CLt => if Rlt_dec x y then true else false
  | CLe => if Rle_dec x y then true else false
  | CGt => if Rlt_dec y x then true else false
  | CGe => if Rle_dec y x then true else false
  end.

Inductive evals {A} : run A -> A -> Prop :=
| EvRet a : evals (Ret a) a
| EvAsk c a b k x y v : evalX a = Xreal x -> evalX b = Xreal y -> evals (k (rcmp c x y)) v -> evals (Ask c a b k) v
| EvFloor e k x v : evalX e = Xreal x -> evals (k (Zfloor x)) v -> evals (AskFloor e k) v.

Inductive outc (A : Type) := OVal (a : A) | OFail (code : Z) | OAmb.
Arguments OVal {A} a. Arguments OFail {A} code. Arguments OAmb {A}.

Section Interp.
Variable prec : F.precision.
Variable p eta : Z.

Definition ev (e : expr) : I.type := evalI prec p eta true e.

Definition decide (c : cmpop) (ia ib : I.type) : tri :=
  match c with
  | CLt => ilt prec ia ib
  | CLe => ile prec ia ib
  | CGt => ilt prec ib ia
  | CGe => ile prec ib ia
  end.

(* integer range [lo,hi] of floor over the enclosure; None if unbounded *)
Definition floor_range (i : I.type) : option (Z * Z) :=
  match I.nearbyint Basic.rnd_DN i with
  | Float.Ibnd l u =>
    match F.toF l, F.toF u with
    | Basic.Float false ml el, Basic.Float false mu eu =>
        Some ((Z.pos ml * 2 ^ el)%Z, (Z.pos mu * 2 ^ eu)%Z)
    | Basic.Float true ml el, Basic.Float false mu eu => Some ((- (Z.pos ml) * 2 ^ el)%Z, (Z.pos mu * 2 ^ eu)%Z)
    | Basic.Float true ml el, Basic.Float true mu eu => Some ((- (Z.pos ml) * 2 ^ el)%Z, (- (Z.pos mu) * 2 ^ eu)%Z)
    | Basic.Fzero, Basic.Float false mu eu => Some (0%Z, (Z.pos mu * 2 ^ eu)%Z)
    | Basic.Float true ml el, Basic.Fzero => Some ((- (Z.pos ml) * 2 ^ el)%Z, 0%Z)
    | Basic.Fzero, Basic.Fzero => Some (0%Z, 0%Z)
    | _, _ => None
    end
  | _ => None
  end.

(* forks: how many undecidable decisions may still be explored both ways *)
Fixpoint interpI {A} (r : run A) (forks : nat) : list (outc A) :=
  match r with
  | Ret a => [OVal a]
  | Fail c => [OFail c]
  | Ask c a b k =>
    match decide c (ev a) (ev b) with
    | TT => interpI (k true) forks
    | TF => interpI (k false) forks
    | TU => match forks with
            | O => [OAmb]
            | S f => interpI (k true) f ++ interpI (k false) f
            end
    end
  | AskFloor e k =>
    match floor_range (ev e) with
    | Some (lo, hi) =>
      if (lo =? hi)%Z then interpI (k lo) forks
      else if (hi =? lo + 1)%Z then
        match forks with O => [OAmb] | S f => interpI (k lo) f ++ interpI (k hi) f end
      else [OAmb]
    | None => [OAmb]
    end
  end.

(* the same exploration, additionally threading a signature of the decisions taken (1 / 2 = a comparison decided true /
   false, 3 = a floor node): used only to record which paths of a model the correspondence exercises; the outcomes
   are those of interpI (interpS_fst below) *)
Definition hmix (h d : Z) : Z := ((h * 1000003 + d) mod 2305843009213693951)%Z.
Fixpoint interpS {A} (r : run A) (forks : nat) (h : Z) : list (outc A * Z) :=
  match r with
  | Ret a => [(OVal a, h)]
  | Fail c => [(OFail c, h)]
  | Ask c a b k =>
    match decide c (ev a) (ev b) with
    | TT => interpS (k true) forks (hmix h 1)
    | TF => interpS (k false) forks (hmix h 2)
    | TU => match forks with
            | O => [(OAmb, h)]
            | S f => interpS (k true) f (hmix h 1) ++ interpS (k false) f (hmix h 2)
            end
    end
  | AskFloor e k =>
    match floor_range (ev e) with
    | Some (lo, hi) =>
      if (lo =? hi)%Z then interpS (k lo) forks (hmix h 3)
      else if (hi =? lo + 1)%Z then
        match forks with O => [(OAmb, h)] | S f => interpS (k lo) f (hmix h 3) ++ interpS (k hi) f (hmix h 3) end
      else [(OAmb, h)]
    | None => [(OAmb, h)]
    end
  end.

Lemma interpS_fst {A} (r : run A) : forall forks h, map fst (interpS r forks h) = interpI r forks.
Proof.
  induction r as [a|c a b k IH|e k IH|c]; intros forks h; cbn [interpS interpI]; try reflexivity.
  - destruct (decide c (ev a) (ev b)); [apply IH|apply IH|].
    destruct forks as [|f]; [reflexivity|]. rewrite map_app, !IH. reflexivity.
  - destruct (floor_range (ev e)) as [[lo hi]|]; [|reflexivity].
    destruct (lo =? hi)%Z; [apply IH|]. destruct (hi =? lo + 1)%Z; [|reflexivity].
    destruct forks as [|f]; [reflexivity|]. rewrite map_app, !IH. reflexivity.
Qed.

End Interp.
