(* Props/C03_discrete.v — part of property C03 on the EXECUTABLE discrete sampler models of
   Model/Discrete.v (the decision trees that C02's pathwise correspondence runs against the crate on
   identical parameter bits and RNG words): under the exact real semantics, for EVERY word list,
   every value a model returns lies in the support, and failure code 3 — the model's marker for the
   places where the code would panic (u64 underflow, `1 << 64`, overflowing add, f64_to_u64
   assertion, table index out of range) — is unreachable.
   Statements only; proofs in Proofs/SupportDiscrete.v.
     allout P Q r   every value returned by the exact semantics of r satisfies P and every reachable
                    failure code satisfies Q                       (Proofs/LoopBounds.v, C05_allout_meaning)
     nopanic c      c <> 3   (codes 1 = explicit word list exhausted, 2 = fuel of the model: see C05)
     dyR q          real value of the dyadic parameter q = (m, e)
   All seven discrete samplers are covered: StandardGeometric, Geometric, Zeta, Zipf, Poisson (Knuth and
   PD), Binomial (constant, Poisson limit, BINV, BTPE, flip), Hypergeometric (HIN, H2PE, reflections).
   The float program deviates from the ideal model at isolated draws (findings F6, F16 for Zipf, F9 for
   Binomial(u64::MAX, 0.5)); those are decided on the real code by the lattice oracle of this check.   *)
From Coq Require Import Reals ZArith List Lra Lia.
From Interval Require Import Xreal.
From RD Require Import Base.Expr Base.Run Model.Sampler Model.Continuous Model.Discrete
  Proofs.LawsInvCdf Proofs.LoopBounds Proofs.PmfBinomial Proofs.SupportDiscrete Proofs.SupportHyper.
Import ListNotations.
Open Scope Z_scope.

Theorem C03_nopanic_def : forall c, nopanic c <-> c <> 3.
Proof. intros c. reflexivity. Qed.

Theorem C03_allout_meaning : forall A (P : A -> Prop) (Q : Z -> Prop) r,
  allout P Q r <-> (forall v, evals r v -> P v) /\ (forall c, fails r c -> Q c).
Proof. exact @allout_spec. Qed.

(* StandardGeometric *)
Theorem C03_std_geometric_support : forall ws, Forall word ws ->
  allout (fun q => 0 <= fst q < 64 * 64) nopanic (std_geometric ws).
Proof. exact std_geometric_support. Qed.

(* Geometric(p), 0 < p <= 1 (all three branches: p >= 2/3, 1 - p == 1, and the power-of-two split:
   the shift `1 << k` has k <= 54 and `(d << k) + m` does not overflow) *)
Theorem C03_geometric_support : forall p ws, (0 < dyR p <= 1)%R ->
  allout (fun q => 0 <= fst q < 2 ^ 64) nopanic (geometric p ws).
Proof. exact geometric_support. Qed.

(* Zeta(s), s > 1: an integer >= 1, or -1 which stands for the documented +infinity of the proposal *)
Theorem C03_zeta_support : forall t s ws, (1 < dyR s)%R -> Forall word ws ->
  allout (fun q => fst q = -1 \/ 1 <= fst q) nopanic (zeta t s ws).
Proof. exact zeta_support. Qed.

(* Zipf(n, s), n an integer >= 1, s >= 0 (all of s = 1, s < 1, s > 1): an integer in [1, n] *)
Theorem C03_zipf_support : forall t n s N, dyR n = IZR N -> 1 <= N -> (0 <= dyR s)%R -> forall ws, Forall word ws ->
  allout (fun r => 1 <= fst r <= N) nopanic (zipf t n s ws).
Proof. exact zipf_support. Qed.

(* Poisson(lambda), lambda > 0, both methods (Knuth below 12, Ahrens-Dieter PD from 12): a
   nonnegative integer; the index into the factorial table of step F is never negative *)
Theorem C03_poisson_support : forall t lambda ws, (0 < dyR lambda)%R ->
  allout (fun q => 0 <= fst q) nopanic (poisson t lambda ws).
Proof. exact poisson_support. Qed.

(* Binomial, BINV: with the constants of the set-up (a = (n+1)s, s = p/q, r = q^n) the walk stops at
   x <= n for every uniform draw (u < 1 = r_0 + ... + r_n), so `n - sample` cannot underflow *)
Theorem C03_binv_support : forall (n : nat) (p : R), (0 < p < 1)%R -> forall fuel a s r ws,
  evalX a = Xreal ((INR n + 1) * (p / (1 - p))) -> evalX s = Xreal (p / (1 - p)) ->
  evalX r = Xreal ((1 - p) ^ n) -> Forall word ws ->
  allout (fun q => 0 <= fst q <= Z.of_nat n) nopanic (binv_outer fuel r a s ws).
Proof. exact binv_outer_le_n. Qed.

(* Binomial, BTPE (n p >= 10 after the flip to p <= 1/2): the two f64_to_u64 assertions (set-up and
   regions 1-3), the saturating cast of region 4 and the u64 subtraction n - y of step 5.3 are safe:
   p1 >= 2.5, x_l = m - floor(2.195 sqrt(npq) - 4.6 q) >= 0, x_r <= n - 1, lambda_l > 0 *)
Theorem C03_btpe_support : forall n pe p flipped ws, evalX pe = Xreal p -> (0 < p <= 1 / 2)%R -> (10 <= IZR n * p)%R ->
  0 <= n <= U64MAX -> Forall word ws ->
  allout (fun q => 0 <= fst q <= n) nopanic (btpe n pe flipped ws).
Proof. exact btpe_support. Qed.

(* Binomial(n, p), every u64 n and every p in [0, 1]: constant, Poisson limit (1 - p == 1.0), BINV and
   BTPE, with and without the p > 1/2 flip *)
Theorem C03_binomial_support : forall n p ws, 0 <= n <= U64MAX -> (0 <= dyR p <= 1)%R -> Forall word ws ->
  allout (fun q => 0 <= fst q <= n) nopanic (binomial n p ws).
Proof. exact binomial_support. Qed.

(* Hypergeometric, the H2PE branch on reduced parameters (n1 <= n2, 2k <= N, mode m >= 10): region 1
   (which has no range test in the code) stays inside [0, min(n1,k)], so the u64 products of step 4.1
   cannot underflow; lambda_l, lambda_r > 0 and p3 >= 0 whenever they are defined *)
Theorem C03_h2pe_branch_support : forall n n1 n2 k m ws,
  n1 + n2 = n -> 0 <= n1 <= n2 -> 0 <= k -> 2 * k <= n -> 10 <= m ->
  (IZR m <= (IZR k + 1) * (IZR n1 + 1) / (IZR n + 2) < IZR m + 1)%R -> Forall word ws ->
  allout (fun q => 0 <= fst q <= Z.min n1 k) nopanic (h2pe_branch n n1 n2 k m ws).
Proof. exact h2pe_branch_support. Qed.

(* Hypergeometric(N, K, n), K <= N, n <= N, N < 2^51 (beyond: failure code 4, outside the model): HIN
   and H2PE under all four combinations of the symmetry reductions *)
Theorem C03_hypergeometric_support : forall N K ns ws, 0 <= K <= N -> 0 <= ns <= N -> Forall word ws ->
  allout (fun q => Z.max 0 (ns + K - N) <= fst q <= Z.min ns K) nopanic (hypergeometric N K ns ws).
Proof. exact hypergeometric_support. Qed.

(* the model's `hypergeometric` is literally the composition these theorems are about *)
Theorem C03_hypergeometric_unfold : forall N K ns,
  hypergeometric N K ns =
  if 2 ^ 51 <=? N then sfail 4 else
  let without := N - K in
  let '(sign_x, offset_x, n1, n2) :=
    if without <? K then (-1, ns, without, K) else (1, 0, K, without) in
  let '(k, offset_x, sign_x) :=
    if ns <=? N / 2 then (ns, offset_x, sign_x) else (N - ns, offset_x + n1 * sign_x, - sign_x) in
  hyper_core N n1 n2 k sign_x offset_x.
Proof. exact hypergeometric_unfold. Qed.

(* the hypotheses are satisfiable and the statements are not vacuous: concrete runs *)
Example C03_ex_std_geometric : evals (std_geometric [1; 7]) (63, [7]) /\ Forall word [1; 7].
Proof. split; [vm_compute; constructor|]. repeat constructor; discriminate. Qed.

Example C03_ex_geometric : evals (geometric (1, 0) [0; 9]) (0, [9]) /\ (0 < dyR (1%Z, 0%Z) <= 1)%R.
Proof.
  split; [|unfold dyR; simpl; lra].
  unfold geometric. cbn [sbind bind sask].
  eapply EvAsk; [apply dyx_eval|apply Support.rat_eval; apply not_0_IZR; lia|].
  replace (rcmp CGe (dyR (1, 0)) (IZR 2 / IZR 3)) with true.
  - apply (geo_trivial_accepts 255 (dyx (1, 0)) (dyR (1, 0)) 0 [9]); [apply dyx_eval|unfold dyR; simpl; lra].
  - unfold rcmp. destruct (Rle_dec (IZR 2 / IZR 3) (dyR (1, 0))) as [H|H]; [reflexivity|].
    exfalso. apply H. unfold dyR. simpl. lra.
Qed.

Print Assumptions C03_nopanic_def.
Print Assumptions C03_allout_meaning.
Print Assumptions C03_std_geometric_support.
Print Assumptions C03_geometric_support.
Print Assumptions C03_zeta_support.
Print Assumptions C03_zipf_support.
Print Assumptions C03_poisson_support.
Print Assumptions C03_binv_support.
Print Assumptions C03_btpe_support.
Print Assumptions C03_binomial_support.
Print Assumptions C03_h2pe_branch_support.
Print Assumptions C03_hypergeometric_support.
Print Assumptions C03_hypergeometric_unfold.
