(* Props/C13_ks.v — Kolmogorov distance between the exact output distribution of a
   sampler on a finite equiprobable draw grid (the empirical measure of the sorted
   output multiset s) and a target CDF F.  Statements only; proofs in Proofs/KS.v.

   Definitions (Proofs/KS.v):
     mono F        := forall x y, x <= y -> F x <= F y
     count_le x s  := number of elements v of s with v <= x   (via Rle_dec)
     G s x         := INR (count_le x s) / INR (length s)
     maxl f k s    := max(0, max_i f (k+i) (nth i s))          (empty max = 0)
     dev F N k v   := Rmax (Rabs (F v - INR (S k) / N)) (Rabs (F v - INR k / N))
     Dmax s F      := maxl (dev F (INR (length s))) 0 s
     Dplus s F     := maxl (fun k v => INR (S k) / N - F v) 0 s      (N = length s)
     Dminus s F    := maxl (fun k v => F v - INR k / N) 0 s
     devE Flo Fhi N k v := Rmax (Fhi v - INR k / N) (INR (S k) / N - Flo v)
     Dencl s Flo Fhi    := maxl (devE Flo Fhi (INR (length s))) 0 s
     DenclL N k lh      := same, enclosures given as a list of pairs (lo, hi)
     left_approx F a    := forall eps > 0, exists x < a, F a - eps < F x
   Indices k are 0-based: nth k s 0 is the (k+1)-th order statistic. *)
From Coq Require Import Reals List Sorted.
From RD Require Import Proofs.KS.
Import ListNotations.
Open Scope R_scope.

Theorem C13_ks_step_formula : forall (F : R -> R) (s : list R),
  mono F -> (forall x, 0 <= F x <= 1) -> s <> [] -> Sorted Rle s ->
  forall x, - Dmax s F <= G s x - F x <= Dmax s F.
Proof. exact ks_step_formula. Qed.
Print Assumptions C13_ks_step_formula.

Theorem C13_ks_step_formula_abs : forall (F : R -> R) (s : list R),
  mono F -> (forall x, 0 <= F x <= 1) -> s <> [] -> Sorted Rle s ->
  forall x, Rabs (G s x - F x) <= Dmax s F.
Proof. exact ks_step_formula_abs. Qed.
Print Assumptions C13_ks_step_formula_abs.

Theorem C13_ks_upper : forall (F : R -> R) (s : list R),
  mono F -> (forall x, 0 <= F x <= 1) -> s <> [] -> Sorted Rle s ->
  forall x, G s x - F x <= Dplus s F.
Proof. exact ks_upper. Qed.
Print Assumptions C13_ks_upper.

Theorem C13_ks_lower : forall (F : R -> R) (s : list R),
  mono F -> (forall x, 0 <= F x <= 1) -> s <> [] -> Sorted Rle s ->
  forall x, F x - G s x <= Dminus s F.
Proof. exact ks_lower. Qed.
Print Assumptions C13_ks_lower.

(* Dmax really is the maximum of the N two-sided deviations *)
Theorem C13_Dmax_ge : forall s F k, (k < length s)%nat ->
  dev F (INR (length s)) k (nth k s 0) <= Dmax s F.
Proof. exact Dmax_ge. Qed.
Print Assumptions C13_Dmax_ge.

Theorem C13_Dmax_attained : forall s F, s <> [] ->
  exists k, (k < length s)%nat /\ Dmax s F = dev F (INR (length s)) k (nth k s 0).
Proof. exact Dmax_attained. Qed.
Print Assumptions C13_Dmax_attained.

Theorem C13_Dmax_eq_max_Dplus_Dminus : forall s F, s <> [] ->
  Dmax s F = Rmax (Dplus s F) (Dminus s F).
Proof. exact Dmax_eq_max_Dplus_Dminus. Qed.
Print Assumptions C13_Dmax_eq_max_Dplus_Dminus.

(* converse: the formula is exact *)
Theorem C13_ks_sup_exact : forall (F : R -> R) (s : list R),
  mono F -> (forall x, 0 <= F x <= 1) -> s <> [] -> Sorted Rle s ->
  (forall k, (k < length s)%nat -> left_approx F (nth k s 0)) ->
  is_lub (fun d => exists x, d = Rabs (G s x - F x)) (Dmax s F).
Proof. exact ks_sup_exact. Qed.
Print Assumptions C13_ks_sup_exact.

Theorem C13_ks_sup_exact_continuous : forall (F : R -> R) (s : list R),
  mono F -> (forall x, 0 <= F x <= 1) -> (forall x, continuity_pt F x) ->
  s <> [] -> Sorted Rle s ->
  is_lub (fun d => exists x, d = Rabs (G s x - F x)) (Dmax s F).
Proof. exact ks_sup_exact_continuous. Qed.
Print Assumptions C13_ks_sup_exact_continuous.

(* bound from a pointwise error analysis *)

Theorem C13_ks_from_cdf_dev : forall (F : R -> R) (us s : list R) (c e : R),
  mono F -> (forall x, 0 <= F x <= 1) -> s <> [] -> Sorted Rle s ->
  (forall k, (k < length s)%nat -> Rabs (F (nth k s 0) - nth k us 0) <= c) ->
  (forall k, (k < length s)%nat -> Rabs (nth k us 0 - INR (S k) / INR (length s)) <= e) ->
  forall x, Rabs (G s x - F x) <= 1 / INR (length s) + e + c.
Proof. exact ks_from_cdf_dev. Qed.
Print Assumptions C13_ks_from_cdf_dev.

Theorem C13_ks_from_pointwise : forall (T F : R -> R) (us s : list R) (delta M e : R),
  mono F -> (forall x, 0 <= F x <= 1) -> s <> [] -> Sorted Rle s ->
  (forall k, (k < length s)%nat -> F (T (nth k us 0)) = nth k us 0) ->
  (forall k, (k < length s)%nat -> Rabs (nth k us 0 - INR (S k) / INR (length s)) <= e) ->
  (forall k, (k < length s)%nat ->
     Rabs (nth k s 0 - T (nth k us 0)) <= delta * Rabs (T (nth k us 0))) ->
  (forall x h, Rabs h <= delta * Rabs x -> Rabs (F (x + h) - F x) <= delta * M) ->
  forall x, Rabs (G s x - F x) <= 1 / INR (length s) + e + delta * M.
Proof. exact ks_from_pointwise. Qed.
Print Assumptions C13_ks_from_pointwise.

Theorem C13_ks_from_pointwise_2N : forall (T F : R -> R) (us s : list R) (delta M : R),
  mono F -> (forall x, 0 <= F x <= 1) -> s <> [] -> Sorted Rle s ->
  (forall u, 0 < u < 1 -> F (T u) = u) ->
  (forall k, (k < length s)%nat -> 0 < nth k us 0 < 1) ->
  (forall k, (k < length s)%nat ->
     Rabs (nth k us 0 - INR (S k) / INR (length s)) <= 1 / INR (length s)) ->
  (forall k, (k < length s)%nat ->
     Rabs (nth k s 0 - T (nth k us 0)) <= delta * Rabs (T (nth k us 0))) ->
  (forall x h, Rabs h <= delta * Rabs x -> Rabs (F (x + h) - F x) <= delta * M) ->
  forall x, Rabs (G s x - F x) <= 2 / INR (length s) + delta * M.
Proof. exact ks_from_pointwise_2N. Qed.
Print Assumptions C13_ks_from_pointwise_2N.

Theorem C13_ks_from_pointwise_grid : forall (T F : R -> R) (s : list R) (delta M : R),
  mono F -> (forall x, 0 <= F x <= 1) -> s <> [] -> Sorted Rle s ->
  (forall k, (k < length s)%nat ->
     F (T (INR (S k) / INR (length s))) = INR (S k) / INR (length s)) ->
  (forall k, (k < length s)%nat ->
     Rabs (nth k s 0 - T (INR (S k) / INR (length s)))
       <= delta * Rabs (T (INR (S k) / INR (length s)))) ->
  (forall x h, Rabs h <= delta * Rabs x -> Rabs (F (x + h) - F x) <= delta * M) ->
  forall x, Rabs (G s x - F x) <= 1 / INR (length s) + delta * M.
Proof. exact ks_from_pointwise_grid. Qed.
Print Assumptions C13_ks_from_pointwise_grid.

Theorem C13_ks_from_pointwise_abs : forall (T F : R -> R) (us s : list R) (eps L e : R),
  mono F -> (forall x, 0 <= F x <= 1) -> s <> [] -> Sorted Rle s ->
  0 <= L ->
  (forall k, (k < length s)%nat -> F (T (nth k us 0)) = nth k us 0) ->
  (forall k, (k < length s)%nat -> Rabs (nth k us 0 - INR (S k) / INR (length s)) <= e) ->
  (forall k, (k < length s)%nat -> Rabs (nth k s 0 - T (nth k us 0)) <= eps) ->
  (forall x y, Rabs (F x - F y) <= L * Rabs (x - y)) ->
  forall x, Rabs (G s x - F x) <= 1 / INR (length s) + e + L * eps.
Proof. exact ks_from_pointwise_abs. Qed.
Print Assumptions C13_ks_from_pointwise_abs.

(* checker helpers: bounds from enclosures of F *)

Theorem C13_max_dev_monotone : forall (F Flo Fhi : R -> R) (s : list R),
  (forall v, In v s -> Flo v <= F v <= Fhi v) ->
  Dmax s F <= Dencl s Flo Fhi.
Proof. exact max_dev_monotone. Qed.
Print Assumptions C13_max_dev_monotone.

Theorem C13_max_dev_enclosure_list : forall (F : R -> R) (s : list R) (lh : list (R * R)),
  Forall2 (fun v p => fst p <= F v <= snd p) s lh ->
  Dmax s F <= DenclL (INR (length s)) 0 lh.
Proof. exact max_dev_enclosure_list. Qed.
Print Assumptions C13_max_dev_enclosure_list.

Theorem C13_ks_bound_from_enclosures : forall (F Flo Fhi : R -> R) (s : list R),
  mono F -> (forall x, 0 <= F x <= 1) -> s <> [] -> Sorted Rle s ->
  (forall v, In v s -> Flo v <= F v <= Fhi v) ->
  forall x, Rabs (G s x - F x) <= Dencl s Flo Fhi.
Proof. exact ks_bound_from_enclosures. Qed.
Print Assumptions C13_ks_bound_from_enclosures.

Theorem C13_ks_bound_from_enclosure_list :
  forall (F : R -> R) (s : list R) (lh : list (R * R)),
  mono F -> (forall x, 0 <= F x <= 1) -> s <> [] -> Sorted Rle s ->
  Forall2 (fun v p => fst p <= F v <= snd p) s lh ->
  forall x, Rabs (G s x - F x) <= DenclL (INR (length s)) 0 lh.
Proof. exact ks_bound_from_enclosure_list. Qed.
Print Assumptions C13_ks_bound_from_enclosure_list.

(* Examples: hypotheses are satisfiable *)
(* Fclip x = Rmax 0 (Rmin 1 x), the CDF of U(0,1); ex_s = [1/4; 1/2; 3/4]. *)

Example C13_example_direct :
  mono Fclip /\ (forall x, 0 <= Fclip x <= 1) /\
  [1 / 4; 1 / 2; 3 / 4] <> [] /\ Sorted Rle [1 / 4; 1 / 2; 3 / 4] /\
  Dmax [1 / 4; 1 / 2; 3 / 4] Fclip = 1 / 4 /\
  forall x, Rabs (G [1 / 4; 1 / 2; 3 / 4] x - Fclip x) <= 1 / 4.
Proof. exact ks_example_direct. Qed.
Print Assumptions C13_example_direct.

(* exact grid 1/3, 2/3, 1; T = identity; outputs with relative error <= 1/10;
   Fclip moves by at most (1/10)*(10/9) under a 1/10 relative perturbation;
   resulting bound 1/3 + (1/10)*(10/9) = 4/9 *)
Example C13_example_pointwise :
  let s := [32 / 100; 7 / 10; 95 / 100] in
  let T := fun u : R => u in
  let delta := 1 / 10 in let M := 10 / 9 in
  Sorted Rle s /\
  (forall k, (k < length s)%nat ->
     Fclip (T (INR (S k) / INR (length s))) = INR (S k) / INR (length s)) /\
  (forall k, (k < length s)%nat ->
     Rabs (nth k s 0 - T (INR (S k) / INR (length s)))
       <= delta * Rabs (T (INR (S k) / INR (length s)))) /\
  (forall x h, Rabs h <= delta * Rabs x -> Rabs (Fclip (x + h) - Fclip x) <= delta * M) /\
  forall x, Rabs (G s x - Fclip x) <= 4 / 9.
Proof. exact ks_example_pointwise. Qed.
Print Assumptions C13_example_pointwise.
