(* Props/C03_fl.v — property C03 at the IEEE-754 level (Flocq BinarySingleNaN, round to nearest even), for the part of
   Beta::sample that involves no libm call (beta.rs:253-262, the `w == inf` guard and the reflection named in the property's
   anchors):   if !switched { if w == inf { return 1 }  w / (b + w) } else { b / (b + w) }.
   For every finite b > 0 and every w that is +inf or finite and >= 0 - which is what w = a * exp(v), a > 0, is for any
   value of exp short of NaN - the result is a FINITE FLOAT IN [0, 1], in binary32 and binary64 (and any other format):
   the sum may overflow (then the quotient is +0), the quotient is the monotone rounding of a real in [0, 1], and the guard
   avoids inf/inf.  Statement only; proof in Proofs/BetaFinalFl.v.                                                        *)
From Coq Require Import ZArith Bool Reals.
From Flocq Require Import Core.Core IEEE754.BinarySingleNaN.
From RD Require Import Proofs.BetaFinalFl Proofs.TriangularFl Proofs.PertFl Gen.FlProg.
Open Scope R_scope.

Theorem C03_beta_final_def : forall prec emax (Hp : Prec_gt_0 prec) (Hpe : Prec_lt_emax prec emax) switched (b w : binary_float prec emax),
  beta_final prec emax Hp Hpe switched b w =
  if switched then Bdiv mode_NE b (Bplus mode_NE b w)
  else match w with B754_infinity false => Bone | _ => Bdiv mode_NE w (Bplus mode_NE b w) end.
Proof. intros. reflexivity. Qed.

Theorem C03_beta_final_in_unit : forall prec emax (Hp : Prec_gt_0 prec) (Hpe : Prec_lt_emax prec emax) switched (b w : binary_float prec emax),
  is_finite b = true -> 0 < B2R b ->
  (w = B754_infinity false \/ (is_finite w = true /\ 0 <= B2R w)) ->
  is_finite (beta_final prec emax Hp Hpe switched b w) = true /\ 0 <= B2R (beta_final prec emax Hp Hpe switched b w) <= 1.
Proof. exact beta_final_in_unit. Qed.

(* the two formats of the crate *)
Example C03_beta_final_binary64 : forall (switched : bool) (b w : binary_float 53 1024),
  is_finite b = true -> 0 < B2R b -> (w = B754_infinity false \/ (is_finite w = true /\ 0 <= B2R w)) ->
  is_finite (beta_final 53 1024 eq_refl eq_refl switched b w) = true /\ 0 <= B2R (beta_final 53 1024 eq_refl eq_refl switched b w) <= 1.
Proof. exact (C03_beta_final_in_unit 53 1024 eq_refl eq_refl). Qed.
Example C03_beta_final_binary32 : forall (switched : bool) (b w : binary_float 24 128),
  is_finite b = true -> 0 < B2R b -> (w = B754_infinity false \/ (is_finite w = true /\ 0 <= B2R w)) ->
  is_finite (beta_final 24 128 eq_refl eq_refl switched b w) = true /\ 0 <= B2R (beta_final 24 128 eq_refl eq_refl switched b w) <= 1.
Proof. exact (C03_beta_final_in_unit 24 128 eq_refl eq_refl). Qed.

(* tie to the source: the two quotients at the end of Beta::sample (beta.rs) as read off /repo on every run
   (Gen/FlProg.v, tools/flprog.py) are the quotients of beta_final. *)
Theorem C03_fl_source : forall prec emax (Hp : Prec_gt_0 prec) (Hpe : Prec_lt_emax prec emax) (b w : binary_float prec emax),
  beta_final prec emax Hp Hpe true b w = src_beta_final_switched prec emax Hp Hpe b w /\
  beta_final prec emax Hp Hpe false b w =
    match w with B754_infinity false => Bone | _ => src_beta_final_plain prec emax Hp Hpe w b end.
Proof. intros. split; reflexivity. Qed.

(* Triangular::sample (triangular.rs:101-110) is libm-free: sqrt is a correctly rounded IEEE operation (Flocq Bsqrt).  The whole
   function body as read off /repo on every run (Gen/FlProg.v: lets, if/else, the draw f opaque) IS triangular_fl. *)
Theorem C03_triangular_source : forall prec emax (Hp : Prec_gt_0 prec) (Hpe : Prec_lt_emax prec emax) (mn md mx f : binary_float prec emax),
  src_triangular_sample prec emax Hp Hpe f md mn mx = triangular_fl prec emax Hp Hpe mn md mx f.
Proof. intros. reflexivity. Qed.

(* For finite min <= mode <= max of magnitude <= 2^k (2k + 3 <= emax: k <= 510 in binary64, k <= 62 in binary32) and EVERY finite draw
   f in [0, 1]: no overflow, no square root of a negative number - the result is a finite float (never NaN, never infinite), >= min exactly
   in the first branch, <= max exactly in the second, and of magnitude <= 2^(k+2) in both. *)
Theorem C03_triangular_fl_finite : forall prec emax (Hp : Prec_gt_0 prec) (Hpe : Prec_lt_emax prec emax) (mn md mx f : binary_float prec emax) (k : Z),
  (0 <= k)%Z -> (2 * k + 3 <= emax)%Z ->
  is_finite mn = true -> is_finite md = true -> is_finite mx = true -> is_finite f = true ->
  B2R mn <= B2R md <= B2R mx -> Rabs (B2R mn) <= bpow radix2 k -> Rabs (B2R mx) <= bpow radix2 k -> 0 <= B2R f <= 1 ->
  is_finite (triangular_fl prec emax Hp Hpe mn md mx f) = true /\
  Rabs (B2R (triangular_fl prec emax Hp Hpe mn md mx f)) <= bpow radix2 (k + 2) /\
  (Bltb (Bmult mode_NE f (Bminus mode_NE mx mn)) (Bminus mode_NE md mn) = true -> B2R mn <= B2R (triangular_fl prec emax Hp Hpe mn md mx f)) /\
  (Bltb (Bmult mode_NE f (Bminus mode_NE mx mn)) (Bminus mode_NE md mn) = false -> B2R (triangular_fl prec emax Hp Hpe mn md mx f) <= B2R mx).
Proof. exact triangular_fl_finite. Qed.

Example C03_triangular_binary64 : forall (mn md mx f : binary_float 53 1024),
  is_finite mn = true -> is_finite md = true -> is_finite mx = true -> is_finite f = true ->
  B2R mn <= B2R md <= B2R mx -> Rabs (B2R mn) <= bpow radix2 510 -> Rabs (B2R mx) <= bpow radix2 510 -> 0 <= B2R f <= 1 ->
  is_finite (triangular_fl 53 1024 eq_refl eq_refl mn md mx f) = true.
Proof. intros mn md mx f A B C D E F G H. apply (C03_triangular_fl_finite 53 1024 eq_refl eq_refl mn md mx f 510); try assumption; discriminate. Qed.

(* Pert::sample (pert.rs:168: beta * range + min) with the constructor's range = max - min (pert.rs:151), both read off /repo on
   every run.  For finite min <= max of magnitude <= 2^k (k + 2 < emax) and every finite Beta draw b in [0,1] (C03_beta_final_in_unit):
   the sample is a finite float, >= min exactly, and <= fl(min + fl(max - min)) <= max + (u + u^2)(max - min) + u |max|  - "inside
   [min, max] up to 4 ulp of the larger bound" (with M = max(|min|, |max|) the excess is at most (3u + 2u^2) M < 4 u M). *)
Theorem C03_pert_source : forall prec emax (Hp : Prec_gt_0 prec) (Hpe : Prec_lt_emax prec emax) (b range mn mx : binary_float prec emax),
  src_pert_sample prec emax Hp Hpe b range mn = pert_sample_fl prec emax Hp Hpe b range mn /\
  src_pert_range prec emax Hp Hpe mx mn = pert_range_fl prec emax Hp Hpe mx mn /\
  pert_sample_fl prec emax Hp Hpe b range mn = Bplus mode_NE (Bmult mode_NE b range) mn /\
  pert_range_fl prec emax Hp Hpe mx mn = Bminus mode_NE mx mn.
Proof. intros. repeat split; reflexivity. Qed.

Theorem C03_pert_fl_support : forall prec emax (Hp : Prec_gt_0 prec) (Hpe : Prec_lt_emax prec emax) (mn mx b : binary_float prec emax) (k : Z),
  (0 <= k)%Z -> (k + 2 < emax)%Z ->
  is_finite mn = true -> is_finite mx = true -> is_finite b = true ->
  B2R mn <= B2R mx -> Rabs (B2R mn) <= bpow radix2 k -> Rabs (B2R mx) <= bpow radix2 k -> 0 <= B2R b <= 1 ->
  let r := pert_range_fl prec emax Hp Hpe mx mn in
  let rnd := round radix2 (SpecFloat.fexp prec emax) (round_mode mode_NE) in
  let u := bpow radix2 (- prec) in
  is_finite (pert_sample_fl prec emax Hp Hpe b r mn) = true /\
  B2R mn <= B2R (pert_sample_fl prec emax Hp Hpe b r mn) <= rnd (B2R r + B2R mn) /\
  rnd (B2R r + B2R mn) <= B2R mx + (u + u * u) * (B2R mx - B2R mn) + u * Rabs (B2R mx).
Proof. exact pert_fl_support. Qed.

Print Assumptions C03_beta_final_def.
Print Assumptions C03_beta_final_in_unit.
Print Assumptions C03_fl_source.
Print Assumptions C03_triangular_source.
Print Assumptions C03_triangular_fl_finite.
Print Assumptions C03_pert_source.
Print Assumptions C03_pert_fl_support.
