(* Props/C12_fl.v — property C12 at the IEEE-754 level (Flocq BinarySingleNaN, round to nearest even), for the acceptance tests of
   UnitDisc and UnitBall (unit_disc.rs:47-52, unit_ball.rs:48-55), which involve no libm call:
       if x1*x1 + x2*x2 [+ x3*x3] <= 1 { break }
   with each product and each sum rounded.  For every binary format with 3 <= prec and prec + 3 <= emax (binary32, binary64) and all
   finite coordinates in [-1, 1] (the range of Uniform::new(-1, 1)), the float test is overflow-free, equals the nested rounding
   disc_sum / ball_sum of the real operations, and an ACCEPTED candidate has REAL squared norm at most 1 + 4u (disc) resp. 1 + 6u
   (ball), u = 2^-prec: the returned point lies within 1 + 3u of the origin.  Statement only; proofs in Proofs/UnitNormFl.v.        *)
From Coq Require Import ZArith Bool Reals.
From Flocq Require Import Core.Core IEEE754.BinarySingleNaN.
From RD Require Import Proofs.FlConst Proofs.AffineFl Proofs.UnitNormFl Proofs.UnitSphereFl Proofs.UnitCircleFl Gen.FlProg.
Open Scope R_scope.

Theorem C12_accept_fl_def : forall prec emax (Hp : Prec_gt_0 prec) (Hpe : Prec_lt_emax prec emax) (x1 x2 x3 : binary_float prec emax),
  disc_accept_fl prec emax Hp Hpe x1 x2 =
    Bleb (Bplus mode_NE (Bmult mode_NE x1 x1) (Bmult mode_NE x2 x2)) (Bone (prec_gt_0_ := Hp) (prec_lt_emax_ := Hpe)) /\
  ball_accept_fl prec emax Hp Hpe x1 x2 x3 =
    Bleb (Bplus mode_NE (Bplus mode_NE (Bmult mode_NE x1 x1) (Bmult mode_NE x2 x2)) (Bmult mode_NE x3 x3))
         (Bone (prec_gt_0_ := Hp) (prec_lt_emax_ := Hpe)).
Proof. intros. split; reflexivity. Qed.

Theorem C12_disc_accept_fl_norm : forall prec emax (Hp : Prec_gt_0 prec) (Hpe : Prec_lt_emax prec emax),
  (prec + 3 <= emax)%Z -> (3 <= prec)%Z -> forall x1 x2 : binary_float prec emax,
  is_finite x1 = true -> is_finite x2 = true -> Rabs (B2R x1) <= 1 -> Rabs (B2R x2) <= 1 ->
  disc_accept_fl prec emax Hp Hpe x1 x2 = true ->
  B2R x1 * B2R x1 + B2R x2 * B2R x2 <= 1 + 4 * bpow radix2 (- prec).
Proof. exact disc_accept_fl_norm. Qed.

Theorem C12_ball_accept_fl_norm : forall prec emax (Hp : Prec_gt_0 prec) (Hpe : Prec_lt_emax prec emax),
  (prec + 3 <= emax)%Z -> (3 <= prec)%Z -> forall x1 x2 x3 : binary_float prec emax,
  is_finite x1 = true -> is_finite x2 = true -> is_finite x3 = true ->
  Rabs (B2R x1) <= 1 -> Rabs (B2R x2) <= 1 -> Rabs (B2R x3) <= 1 ->
  ball_accept_fl prec emax Hp Hpe x1 x2 x3 = true ->
  B2R x1 * B2R x1 + B2R x2 * B2R x2 + B2R x3 * B2R x3 <= 1 + 6 * bpow radix2 (- prec).
Proof. exact ball_accept_fl_norm. Qed.

(* the float sum is finite (no overflow, no NaN) and is the nested rounding of the real operations *)
Theorem C12_disc_sum_fl_value : forall prec emax (Hp : Prec_gt_0 prec) (Hpe : Prec_lt_emax prec emax),
  (prec + 3 <= emax)%Z -> (3 <= prec)%Z -> forall x1 x2 : binary_float prec emax,
  is_finite x1 = true -> is_finite x2 = true -> Rabs (B2R x1) <= 1 -> Rabs (B2R x2) <= 1 ->
  B2R (disc_sum_fl prec emax Hp Hpe x1 x2) = disc_sum prec emax (B2R x1) (B2R x2) /\
  is_finite (disc_sum_fl prec emax Hp Hpe x1 x2) = true /\ 0 <= disc_sum prec emax (B2R x1) (B2R x2) <= 3.
Proof. exact disc_sum_fl_value. Qed.

(* converse: below a shell of width 4u (6u) the float test never rejects, so  {|x|^2 <= 1 - 4u}  <=  accepted  <=  {|x|^2 <= 1 + 4u} *)
Theorem C12_disc_accept_fl_complete : forall prec emax (Hp : Prec_gt_0 prec) (Hpe : Prec_lt_emax prec emax),
  (prec + 3 <= emax)%Z -> (3 <= prec)%Z -> forall x1 x2 : binary_float prec emax,
  is_finite x1 = true -> is_finite x2 = true -> Rabs (B2R x1) <= 1 -> Rabs (B2R x2) <= 1 ->
  B2R x1 * B2R x1 + B2R x2 * B2R x2 <= 1 - 4 * bpow radix2 (- prec) ->
  disc_accept_fl prec emax Hp Hpe x1 x2 = true.
Proof. exact disc_accept_fl_complete. Qed.

Theorem C12_ball_accept_fl_complete : forall prec emax (Hp : Prec_gt_0 prec) (Hpe : Prec_lt_emax prec emax),
  (prec + 3 <= emax)%Z -> (3 <= prec)%Z -> forall x1 x2 x3 : binary_float prec emax,
  is_finite x1 = true -> is_finite x2 = true -> is_finite x3 = true ->
  Rabs (B2R x1) <= 1 -> Rabs (B2R x2) <= 1 -> Rabs (B2R x3) <= 1 ->
  B2R x1 * B2R x1 + B2R x2 * B2R x2 + B2R x3 * B2R x3 <= 1 - 6 * bpow radix2 (- prec) ->
  ball_accept_fl prec emax Hp Hpe x1 x2 x3 = true.
Proof. exact ball_accept_fl_complete. Qed.

(* tie to the source: the conditions of `if … { break; }` in unit_disc.rs / unit_ball.rs as read off /repo on every run
   (Gen/FlProg.v, tools/flprog.py) ARE the programs the theorems speak about. *)
Theorem C12_fl_source : forall prec emax (Hp : Prec_gt_0 prec) (Hpe : Prec_lt_emax prec emax) (x1 x2 x3 : binary_float prec emax),
  src_unit_disc_accept prec emax Hp Hpe x1 x2 = disc_accept_fl prec emax Hp Hpe x1 x2 /\
  src_unit_ball_accept prec emax Hp Hpe x1 x2 x3 = ball_accept_fl prec emax Hp Hpe x1 x2 x3.
Proof. intros. split; reflexivity. Qed.

(* UnitSphere (unit_sphere.rs:52-63) is libm-free too: sum, the rejection test, factor = 2 sqrt(1 - sum) and the three returned
   components, each read off /repo on every run, are the hand-written programs; 2 is the float 1 + 1 (Proofs/FlConst.v: B2R Btwo = 2). *)
Theorem C12_sphere_fl_source : forall prec emax (Hp : Prec_gt_0 prec) (Hpe : Prec_lt_emax prec emax) (x1 x2 s f : binary_float prec emax),
  src_unit_sphere_sum prec emax Hp Hpe x1 x2 = disc_sum_fl prec emax Hp Hpe x1 x2 /\
  src_unit_sphere_reject prec emax Hp Hpe s = sphere_reject_fl prec emax Hp Hpe s /\
  src_unit_sphere_factor prec emax Hp Hpe s = sphere_factor_fl prec emax Hp Hpe s /\
  src_unit_sphere_x prec emax Hp Hpe x1 f = sphere_xy_fl prec emax Hp Hpe x1 f /\
  src_unit_sphere_y prec emax Hp Hpe x2 f = sphere_xy_fl prec emax Hp Hpe x2 f /\
  src_unit_sphere_z prec emax Hp Hpe s = sphere_z_fl prec emax Hp Hpe s.
Proof. intros. repeat split; reflexivity. Qed.

Theorem C12_Btwo_correct : forall prec emax (Hp : Prec_gt_0 prec) (Hpe : Prec_lt_emax prec emax),
  B2R (Btwo prec emax Hp Hpe) = 2 /\ is_finite (Btwo prec emax Hp Hpe) = true.
Proof. exact Btwo_correct. Qed.

(* For finite x1, x2 in [-1, 1] whose float sum is not rejected: no overflow, the square root is taken of a number in [0, 1], all three
   components are finite floats (never NaN), the third in [-1, 1] exactly, the first two in [-2, 2], the factor in [0, 2]. *)
Theorem C12_sphere_fl_finite : forall prec emax (Hp : Prec_gt_0 prec) (Hpe : Prec_lt_emax prec emax),
  (prec + 3 <= emax)%Z -> (3 <= prec)%Z -> forall x1 x2 : binary_float prec emax,
  is_finite x1 = true -> is_finite x2 = true -> Rabs (B2R x1) <= 1 -> Rabs (B2R x2) <= 1 ->
  sphere_reject_fl prec emax Hp Hpe (disc_sum_fl prec emax Hp Hpe x1 x2) = false ->
  let s := disc_sum_fl prec emax Hp Hpe x1 x2 in
  let f := sphere_factor_fl prec emax Hp Hpe s in
  is_finite (sphere_xy_fl prec emax Hp Hpe x1 f) = true /\ is_finite (sphere_xy_fl prec emax Hp Hpe x2 f) = true /\
  is_finite (sphere_z_fl prec emax Hp Hpe s) = true /\
  Rabs (B2R (sphere_xy_fl prec emax Hp Hpe x1 f)) <= 2 /\ Rabs (B2R (sphere_xy_fl prec emax Hp Hpe x2 f)) <= 2 /\
  Rabs (B2R (sphere_z_fl prec emax Hp Hpe s)) <= 1 /\ 0 <= B2R f <= 2.
Proof. exact sphere_fl_finite. Qed.

(* UnitCircle (unit_circle.rs:49-63), five translated sites.  For finite x1, x2 in [-1, 1] with a positive float sum the inequality
   |diff| <= sum holds between the FLOATS (rounding is monotone and odd), so the first component diff / sum is a finite float in
   [-1, 1] exactly.  (The second quotient and the norm-1 clause at the float level are not proved; 4-ulp norm oracle.) *)
Theorem C12_circle_fl_source : forall prec emax (Hp : Prec_gt_0 prec) (Hpe : Prec_lt_emax prec emax) (x1 x2 d s : binary_float prec emax),
  src_unit_circle_sum prec emax Hp Hpe x1 x2 = circle_sum_fl prec emax Hp Hpe x1 x2 /\
  src_unit_circle_accept prec emax Hp Hpe s = circle_accept_fl prec emax Hp Hpe s /\
  src_unit_circle_diff prec emax Hp Hpe x1 x2 = circle_diff_fl prec emax Hp Hpe x1 x2 /\
  src_unit_circle_c0 prec emax Hp Hpe d s = circle_c0_fl prec emax Hp Hpe d s /\
  src_unit_circle_c1 prec emax Hp Hpe x1 x2 s = circle_c1_fl prec emax Hp Hpe x1 x2 s.
Proof. intros. repeat split; reflexivity. Qed.

Theorem C12_circle_c0_fl_unit : forall prec emax (Hp : Prec_gt_0 prec) (Hpe : Prec_lt_emax prec emax) (x1 x2 : binary_float prec emax),
  is_finite x1 = true -> is_finite x2 = true -> Rabs (B2R x1) <= 1 -> Rabs (B2R x2) <= 1 ->
  0 < B2R (circle_sum_fl prec emax Hp Hpe x1 x2) ->
  is_finite (circle_sum_fl prec emax Hp Hpe x1 x2) = true /\ is_finite (circle_diff_fl prec emax Hp Hpe x1 x2) = true /\
  Rabs (B2R (circle_diff_fl prec emax Hp Hpe x1 x2)) <= B2R (circle_sum_fl prec emax Hp Hpe x1 x2) /\
  is_finite (circle_c0_fl prec emax Hp Hpe (circle_diff_fl prec emax Hp Hpe x1 x2) (circle_sum_fl prec emax Hp Hpe x1 x2)) = true /\
  Rabs (B2R (circle_c0_fl prec emax Hp Hpe (circle_diff_fl prec emax Hp Hpe x1 x2) (circle_sum_fl prec emax Hp Hpe x1 x2))) <= 1.
Proof. exact circle_c0_fl_unit. Qed.

(* non-vacuity: binary64 and binary32 meet the format hypotheses *)
Example C12_fl_binary64 : forall x1 x2 : binary_float 53 1024,
  is_finite x1 = true -> is_finite x2 = true -> Rabs (B2R x1) <= 1 -> Rabs (B2R x2) <= 1 ->
  disc_accept_fl 53 1024 eq_refl eq_refl x1 x2 = true -> B2R x1 * B2R x1 + B2R x2 * B2R x2 <= 1 + 4 * bpow radix2 (- 53).
Proof. intros x1 x2. apply (C12_disc_accept_fl_norm 53 1024 eq_refl eq_refl); discriminate. Qed.
Example C12_fl_binary32 : forall x1 x2 x3 : binary_float 24 128,
  is_finite x1 = true -> is_finite x2 = true -> is_finite x3 = true -> Rabs (B2R x1) <= 1 -> Rabs (B2R x2) <= 1 -> Rabs (B2R x3) <= 1 ->
  ball_accept_fl 24 128 eq_refl eq_refl x1 x2 x3 = true ->
  B2R x1 * B2R x1 + B2R x2 * B2R x2 + B2R x3 * B2R x3 <= 1 + 6 * bpow radix2 (- 24).
Proof. intros x1 x2 x3. apply (C12_ball_accept_fl_norm 24 128 eq_refl eq_refl); discriminate. Qed.

Print Assumptions C12_accept_fl_def.
Print Assumptions C12_disc_accept_fl_norm.
Print Assumptions C12_ball_accept_fl_norm.
Print Assumptions C12_disc_sum_fl_value.
Print Assumptions C12_disc_accept_fl_complete.
Print Assumptions C12_ball_accept_fl_complete.
Print Assumptions C12_fl_source.
Print Assumptions C12_sphere_fl_source.
Print Assumptions C12_Btwo_correct.
Print Assumptions C12_sphere_fl_finite.
Print Assumptions C12_circle_fl_source.
Print Assumptions C12_circle_c0_fl_unit.
