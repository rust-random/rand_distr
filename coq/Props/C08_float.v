(* Props/C08_float.v — WeightedAliasIndex with FLOAT weights (f32, f64).

   For integer weights C08 (Props/C08.v) proves that `sample` returns an in-range index of
   non-zero weight for every (column, threshold) pair.  For float weights this is FALSE:
   C08_float_sentinel_refuted exhibits, by computation in the executable model
   Model/FloatWeights.v, the accepted weight vector [5e-324] (f64 bit pattern 1) for which
   `sample` returns 4294967295 — the u32::MAX "empty list" sentinel left in `aliases[0]` —
   when the threshold draw Uniform(0, S) returns S itself (defect F8): rand's UniformFloat
   does not guarantee the exclusive upper bound, and the alias table only protects the
   sentinel with `r < no_alias_odds[c]`, which is `S < S` = false.

   What does hold for ALL float weight lists is stated after the refutation: the complete
   characterisation of the result of `new`.                                                  *)
From Coq Require Import ZArith List Bool Lia Reals.
From Flocq Require Import Core.Core IEEE754.Binary IEEE754.Bits IEEE754.BinarySingleNaN.
From RD Require Import Model.Tree Model.Uniform Model.FloatWeights.
From RD Require Import Proofs.FloatWeightsProofs Proofs.FloatWeightsAlias.
Import ListNotations.
Open Scope Z_scope.

(* the F8 witness: one f64 weight, the smallest subnormal 5e-324 *)
Definition F8_bits : list Z := [1].
Definition F8_ws : list fl64 := map fdec64 F8_bits.
Definition F8_words : list Z := [0; 0xffffffffffffffff].   (* column draw, threshold draw *)
Definition F8_dummy : fatab 53 1024 :=
  {| ft_al := []; ft_odds := []; ft_sum := B754_nan; ft_unif := (B754_nan, B754_nan) |}.
(* the table built by `new` (Ok-projection; that `new` returns Ok is part of the theorem) *)
Definition F8_tab : fatab 53 1024 :=
  match falias_new 53 1024 FHp64 FHpe64 F8_ws with Ok t => t | _ => F8_dummy end.

(* harness: `alias f64 0 x0000000000000001 S:0,0 S:0,ffffffffffffffff` prints
   ok|[4294967295]|[x0000000000000001]|[x0000000000000001]|idx:0:2;idx:4294967295:2 *)
Theorem C08_float_sentinel_refuted :
  exists (ws : list fl64) (t : fatab 53 1024) (w : Z),
    0 <= w < 2^64 /\
    falias_new 53 1024 FHp64 FHpe64 ws = Ok t /\
    (* column 0 holds the sentinel and odds = sum = 5e-324 *)
    ft_al 53 1024 t = [4294967295] /\
    map fenc64 (ft_odds 53 1024 t) = [1] /\ fenc64 (ft_sum 53 1024 t) = 1 /\
    feq 53 1024 (geto 53 1024 (ft_odds 53 1024 t) 0) (ft_sum 53 1024 t) = true /\
    (* Uniform::new(0.0, S) is {low = 0, scale = S}; the all-ones word yields r = S itself *)
    (fenc64 (fst (ft_unif 53 1024 t)), fenc64 (snd (ft_unif 53 1024 t))) = (0, 1) /\
    fenc64 (falias_threshold 53 1024 FHp64 FHpe64 t w) = fenc64 (ft_sum 53 1024 t) /\
    (* and sample returns the sentinel, which is not an index *)
    falias_pick 53 1024 t 0 (falias_threshold 53 1024 FHp64 FHpe64 t w) = 4294967295 /\
    falias_sample 53 1024 FHp64 FHpe64 t [0; w] = Some (4294967295, 2) /\
    4294967295 >= Z.of_nat (length (ft_al 53 1024 t)) /\
    (* reconstructing the weights from the table is fine: weights() = [5e-324] *)
    option_map (map fenc64) (falias_weights 53 1024 FHp64 FHpe64 t) = Some [1].
Proof.
  exists F8_ws, F8_tab, 0xffffffffffffffff.
  split; [vm_compute; split; [discriminate | reflexivity] |].
  repeat split; try (vm_compute; reflexivity). vm_compute. discriminate.
Qed.

(* the same input with a zero threshold word samples index 0: the table is otherwise fine *)
Example C08_float_witness_other_word :
  falias_sample 53 1024 FHp64 FHpe64 F8_tab [0; 0] = Some (0, 2).
Proof. vm_compute. reflexivity. Qed.

(* the defect is not specific to f64 or to one weight: f32 5e-45 (bits 1), and bits 1,2,3 *)
Example C08_float_sentinel_f32 :
  aio_run32 [1] [[0; 0xffffffffffffffff]] = ATab [4294967295] [1] (Some [1]) [Some (4294967295, 2)] /\
  aio_run32 [3] [[0; 0xffffffffffffffff]] = ATab [4294967295] [3] (Some [3]) [Some (4294967295, 2)].
Proof. split; vm_compute; reflexivity. Qed.

(* what holds for all float weights, both formats *)
Section Fmt.
Variable prec emax : Z.
Context (Hp : Prec_gt_0 prec) (Hpe : Prec_lt_emax prec emax).
Notation float := (BinarySingleNaN.binary_float prec emax).

(* Complete characterisation of the result of `new`.  The code computes
     n_f  = n as W                       (round-to-nearest conversion of the u32 length)
     maxw = W::MAX / n_f                 (rounded division)
   and rejects w unless `0.0 <= w && w <= maxw`, i.e. w is NaN, strictly negative (-0.0 is
   accepted), or `w <= maxw` is false (+inf, or a finite w with w > maxw as real numbers —
   see C08_float_maxw below).  The sum is the pairwise sum clamped to MAX; InsufficientNonZero
   iff it compares equal to 0.0.  Otherwise the construction succeeds: no panic.               *)
Theorem C08_float_new_errors : forall ws : list float,
  let n := Z.of_nat (length ws) in
  let bad_len := n = 0 \/ n > 4294967295 in
  let bad_w := exists w, In w ws /\
     (is_nan w = true \/ fneg_strict prec emax w = true \/
      fle prec emax w (falias_maxw prec emax Hp Hpe ws) = false) in
  let zero_sum := feq prec emax (falias_sum prec emax Hp Hpe ws) (fzero prec emax) = true in
  (bad_len -> falias_new prec emax Hp Hpe ws = Err InvalidInput) /\
  (~ bad_len -> bad_w -> falias_new prec emax Hp Hpe ws = Err InvalidWeight) /\
  (~ bad_len -> ~ bad_w -> zero_sum -> falias_new prec emax Hp Hpe ws = Err InsufficientNonZero) /\
  (~ bad_len -> ~ bad_w -> ~ zero_sum ->
     exists t, falias_new prec emax Hp Hpe ws = Ok t /\
               length (ft_al prec emax t) = length ws /\ length (ft_odds prec emax t) = length ws /\
               ft_sum prec emax t = falias_sum prec emax Hp Hpe ws /\
               ft_unif prec emax t = (fzero prec emax, falias_sum prec emax Hp Hpe ws)).
Proof. exact (alias_float_new_errors prec emax Hp Hpe). Qed.

(* the accepted sum is a finite, strictly positive float *)
Theorem C08_float_sum_pos : forall (ws : list float) t,
  falias_new prec emax Hp Hpe ws = Ok t ->
  is_finite (ft_sum prec emax t) = true /\ (0 < B2R (ft_sum prec emax t))%R.
Proof. exact (alias_float_sum_pos prec emax Hp Hpe). Qed.

(* meaning of `w <= maxw` for the weights that are neither NaN nor infinite; `32 < emax` (true for
   f32 and f64) makes the conversion of the u32 length to the float format finite *)
Theorem C08_float_maxw : forall (ws : list float) (w : float),
  32 < emax -> (0 < length ws)%nat -> Z.of_nat (length ws) <= 4294967295 ->
  is_finite (falias_maxw prec emax Hp Hpe ws) = true /\
  (is_finite w = true ->
     (fle prec emax w (falias_maxw prec emax Hp Hpe ws) = true <->
      (B2R w <= B2R (falias_maxw prec emax Hp Hpe ws))%R)) /\
  fle prec emax (B754_infinity false) (falias_maxw prec emax Hp Hpe ws) = false.
Proof. exact (alias_float_maxw prec emax Hp Hpe). Qed.
End Fmt.

Print Assumptions C08_float_sentinel_refuted.
Print Assumptions C08_float_witness_other_word.
Print Assumptions C08_float_sentinel_f32.
Print Assumptions C08_float_new_errors.
Print Assumptions C08_float_sum_pos.
Print Assumptions C08_float_maxw.
