(* Props/C01_identities.v — the real-number identities and inequalities that make the continuous
   rejection / transformation samplers of rand_distr produce their documented densities (ideal
   arithmetic, all parameters).  Statements only; proofs in Proofs/RejectGamma.v, Proofs/RejectBeta.v,
   Proofs/RejectIdentities.v.  Every Definition used in a statement has its defining equation restated
   here in a C01_*_defs theorem.

   Vocabulary
     std_normal_pdf x          exp(-x^2/2)/sqrt(2 pi)
     mt_v c x                  v = (1 + c x)^3                                   (gamma.rs:230-235)
     mt_logacc d c x           x^2/2 + d (1 - v + ln v): the code accepts iff ln u < mt_logacc (gamma.rs:240)
     mt_accept d c x           exp (mt_logacc d c x), the acceptance probability given x
     gamma_kernel k y          y^(k-1) e^(-y), unnormalised Gamma(k,1) density
     mt_K d c                  e^d / (sqrt(2 pi) * 3 d c * d^(d-2/3)), the constant of proportionality
     ig_y, ig_s, ig_x1, ig_x2  y = mu v v, sqrt(4 l y + y y), the returned roots   (inverse_gaussian.rs:99-111)
     ig_g mu l x               l (x-mu)^2/(mu^2 x);  ig_pdf the IG(mu,l) density;  ig_g' = d ig_g/dx
     skew_normalized a z1 z2   ((1+a) max + (1-a) min)/(sqrt(1+a^2) sqrt 2)         (skew_normal.rs:155-157)
     bb_V, bb_W, bb_R, bb_S    v, w, r, s of beta.rs:195-199;  bb_E a b r w = r + alpha ln(alpha/(b+w))
     bb_G, bb_g                log-logistic proposal CDF / density (lambda = 1/beta)
     bb_f a b w                w^(a-1)/(b+w)^(a+b), kernel of W = bX/(1-X), X ~ Beta(a,b)
     bb_C a b lam              lam alpha^alpha/(4 a^a)
     pert_v, pert_w            the Beta parameters computed by PertBuilder::with_mode (pert.rs:152-153)    *)
From Coq Require Import Reals Lra Lia.
From Coquelicot Require Import Coquelicot.
From RD Require Import Proofs.RejectGamma Proofs.RejectBeta Proofs.RejectIdentities.
Open Scope R_scope.

(* 1. Gamma: Marsaglia–Tsang (gamma.rs:190-246) *)

Theorem C01_mt_defs : forall d c x k y,
  std_normal_pdf x = exp (- (x ^ 2 / 2)) / sqrt (2 * PI) /\
  mt_v c x = (1 + c * x) ^ 3 /\
  mt_logacc d c x = x ^ 2 / 2 + d * (1 - mt_v c x + ln (mt_v c x)) /\
  mt_accept d c x = exp (mt_logacc d c x) /\
  gamma_kernel k y = Rpower y (k - 1) * exp (- y) /\
  mt_K d c = exp d / (sqrt (2 * PI) * (3 * d * c) * Rpower d (d - 2 / 3)) /\
  mt_h x = 9 * x ^ 2 / 2 + 1 - (1 + x) ^ 3 + 3 * ln (1 + x).
Proof. exact mt_defs. Qed.
Print Assumptions C01_mt_defs.

(* c as computed by new_raw: c > 0 and 9 d c^2 = 1 *)
Theorem C01_mt_c_spec : forall d, 0 < d -> let c := 1 / sqrt (9 * d) in 0 < c /\ 9 * d * c ^ 2 = 1.
Proof. exact mt_c_spec. Qed.
Print Assumptions C01_mt_c_spec.

(* (a) normal density * acceptance probability = K * Gamma(k,1) kernel at y = d v * |dy/dx|,
       k = d + 1/3, K independent of x *)
Theorem C01_mt_identity : forall d c x, 0 < d -> 0 < c -> 0 < 1 + c * x ->
  std_normal_pdf x * mt_accept d c x
  = mt_K d c * gamma_kernel (d + 1 / 3) (d * mt_v c x) * (3 * d * c * (1 + c * x) ^ 2).
Proof. exact mt_identity. Qed.
Print Assumptions C01_mt_identity.

Theorem C01_mt_identity_log : forall d c x, 0 < d -> 0 < c -> 0 < 1 + c * x ->
  - (x ^ 2 / 2) + mt_logacc d c x
  = ((d - 2 / 3) * ln (d * mt_v c x) - d * mt_v c x) + 2 * ln (1 + c * x)
    + (d - (d - 2 / 3) * ln d).
Proof. exact mt_identity_log. Qed.
Print Assumptions C01_mt_identity_log.

Theorem C01_mt_jacobian : forall d c x,
  is_derive (fun x => d * mt_v c x) x (3 * d * c * (1 + c * x) ^ 2).
Proof. exact mt_jacobian. Qed.
Print Assumptions C01_mt_jacobian.

(* (b) the acceptance function is a probability, for every d > 0 *)
Theorem C01_mt_h_nonpos : forall t, -1 < t -> mt_h t <= 0.
Proof. exact mt_h_nonpos. Qed.
Print Assumptions C01_mt_h_nonpos.

Theorem C01_mt_envelope : forall d x, 0 < d -> let c := 1 / sqrt (9 * d) in 0 < 1 + c * x ->
  mt_logacc d c x <= 0 /\ 0 < mt_accept d c x <= 1.
Proof. exact mt_envelope. Qed.
Print Assumptions C01_mt_envelope.

Theorem C01_mt_accept_at_0 : forall d c, mt_accept d c 0 = 1.
Proof. exact mt_accept_at_0. Qed.
Print Assumptions C01_mt_accept_at_0.

(* (c) the quick-accept test u < 1 - 0.0331 x^4 implies the exact test, for every shape >= 1 *)
Theorem C01_mt_squeeze : forall d x, 2 / 3 <= d -> let c := 1 / sqrt (9 * d) in
  0 < 1 - 0.0331 * x ^ 4 ->
  0 < 1 + c * x /\ ln (1 - 0.0331 * x ^ 4) <= mt_logacc d c x.
Proof. exact mt_squeeze. Qed.
Print Assumptions C01_mt_squeeze.

Theorem C01_mt_squeeze_test : forall d x u, 2 / 3 <= d -> let c := 1 / sqrt (9 * d) in
  0 < u -> u < 1 - 0.0331 * x ^ 4 -> ln u < mt_logacc d c x.
Proof. exact mt_squeeze_test. Qed.
Print Assumptions C01_mt_squeeze_test.

(* (d) what the small-shape and large-shape branches return *)
Theorem C01_gamma_boost_form : forall k scale v u, 0 < k ->
  let d := k + 1 - 1 / 3 in
  (v * Rpower u (1 / k) * d) * scale = scale * ((d * v) * Rpower u (/ k)).
Proof. exact gamma_boost_form. Qed.
Print Assumptions C01_gamma_boost_form.

Theorem C01_gamma_large_form : forall d scale v, v * (d * scale) = scale * (d * v).
Proof. exact gamma_large_form. Qed.
Print Assumptions C01_gamma_large_form.

(* (e) why the boost G * U^(1/k), G ~ Gamma(k+1), gives Gamma(k) for shape k < 1: conditional cdf min(1,(y/t)^k);
   the Gamma(k+1) kernel t^k e^-t integrated against its y-derivative k y^(k-1) t^-k over (y, M) is
   k y^(k-1) (e^-y - e^-M), which tends to k times the Gamma(k) kernel (and Gamma(k+1) = k Gamma(k)).
   Partial: the interchange of d/dy with the t-integral is not formalised. *)
Theorem C01_gamma_boost_event : forall k t u y, 0 < k -> 0 < t -> 0 < u -> 0 < y ->
  (t * Rpower u (1 / k) <= y <-> u <= Rpower (y / t) k).
Proof. exact gamma_boost_event. Qed.
Print Assumptions C01_gamma_boost_event.

Theorem C01_gamma_boost_kernel : forall k y M, 0 < k -> 0 < y -> y < M ->
  is_RInt (fun t => gamma_kernel (k + 1) t * (k * Rpower y (k - 1) * Rpower t (- k))) y M
          (k * Rpower y (k - 1) * (exp (- y) - exp (- M))).
Proof. exact gamma_boost_kernel. Qed.
Print Assumptions C01_gamma_boost_kernel.

Theorem C01_gamma_boost_kernel_limit : forall k y, 0 < k -> 0 < y ->
  is_lim (fun M => k * Rpower y (k - 1) * (exp (- y) - exp (- M))) p_infty (k * gamma_kernel k y).
Proof. exact gamma_boost_kernel_limit. Qed.
Print Assumptions C01_gamma_boost_kernel_limit.

Example C01_ex_mt :
  std_normal_pdf 1 * mt_accept 1 (1 / 3) 1
  = mt_K 1 (1 / 3) * gamma_kernel (1 + 1 / 3) (1 * mt_v (1 / 3) 1) * (3 * 1 * (1 / 3) * (1 + 1 / 3 * 1) ^ 2) /\
  0 < mt_accept 1 (1 / sqrt (9 * 1)) 1 <= 1 /\
  ln (1 - 0.0331 * 1 ^ 4) <= mt_logacc 1 (1 / sqrt (9 * 1)) 1.
Proof.
  assert (Hs : 0 < 1 + 1 / sqrt (9 * 1) * 1).
  { assert (0 < 1 / sqrt (9 * 1)) by (apply Rdiv_lt_0_compat; [lra | apply sqrt_lt_R0; lra]). lra. }
  split; [| split].
  - apply C01_mt_identity; lra.
  - apply (C01_mt_envelope 1 1); [lra | exact Hs].
  - apply (C01_mt_squeeze 1 1); lra.
Qed.

(* 2. Inverse Gaussian (inverse_gaussian.rs:91-112) *)

Theorem C01_ig_defs : forall mu l v x,
  ig_y mu v = mu * v * v /\
  ig_s mu l v = sqrt (4 * l * ig_y mu v + ig_y mu v * ig_y mu v) /\
  ig_x1 mu l v = mu + mu / (2 * l) * (ig_y mu v - ig_s mu l v) /\
  ig_x2 mu l v = mu * mu / ig_x1 mu l v /\
  ig_g mu l x = l * (x - mu) ^ 2 / (mu ^ 2 * x).
Proof. exact ig_defs. Qed.
Print Assumptions C01_ig_defs.

Theorem C01_ig_pdf_defs : forall mu l x,
  ig_pdf mu l x = sqrt (l / (2 * PI * x ^ 3)) * exp (- (l * (x - mu) ^ 2 / (2 * mu ^ 2 * x))) /\
  ig_g' mu l x = l * (x ^ 2 - mu ^ 2) / (mu ^ 2 * x ^ 2).
Proof. exact ig_pdf_defs. Qed.
Print Assumptions C01_ig_pdf_defs.

Theorem C01_ig_roots_product : forall mu l v, 0 < mu -> 0 < l ->
  ig_x1 mu l v * ig_x2 mu l v = mu ^ 2.
Proof. exact ig_roots_product. Qed.
Print Assumptions C01_ig_roots_product.

Theorem C01_ig_x2_closed : forall mu l v, 0 < mu -> 0 < l ->
  ig_x2 mu l v = mu + mu / (2 * l) * (ig_y mu v + ig_s mu l v).
Proof. exact ig_x2_closed. Qed.
Print Assumptions C01_ig_x2_closed.

(* both returned values solve  l (x - mu)^2 / (mu^2 x) = v^2  (a chi-square(1) variate) *)
Theorem C01_ig_roots_solve : forall mu l v, 0 < mu -> 0 < l ->
  ig_g mu l (ig_x1 mu l v) = v ^ 2 /\ ig_g mu l (ig_x2 mu l v) = v ^ 2.
Proof. exact ig_roots_solve. Qed.
Print Assumptions C01_ig_roots_solve.

Theorem C01_ig_x1_pos : forall mu l v, 0 < mu -> 0 < l -> 0 < ig_x1 mu l v <= mu.
Proof. exact ig_x1_pos. Qed.
Print Assumptions C01_ig_x1_pos.

Theorem C01_ig_x2_ge : forall mu l v, 0 < mu -> 0 < l -> mu <= ig_x2 mu l v.
Proof. exact ig_x2_ge. Qed.
Print Assumptions C01_ig_x2_ge.

Theorem C01_ig_choice_prob_range : forall mu l v, 0 < mu -> 0 < l ->
  1 / 2 <= mu / (mu + ig_x1 mu l v) < 1.
Proof. exact ig_choice_prob_range. Qed.
Print Assumptions C01_ig_choice_prob_range.

(* mu/(mu+x1) is the Michael–Schucany–Haas weight  w1/(w1+w2),  w_i = f(x_i)/|g'(x_i)| *)
Theorem C01_ig_choice_prob : forall mu l x1, 0 < mu -> 0 < l -> 0 < x1 < mu ->
  let x2 := mu * mu / x1 in
  let w1 := ig_pdf mu l x1 / Rabs (ig_g' mu l x1) in
  let w2 := ig_pdf mu l x2 / Rabs (ig_g' mu l x2) in
  w1 / (w1 + w2) = mu / (mu + x1).
Proof. exact ig_choice_prob. Qed.
Print Assumptions C01_ig_choice_prob.

Example C01_ex_ig :
  ig_x1 1 1 1 * ig_x2 1 1 1 = 1 ^ 2 /\ ig_g 1 1 (ig_x1 1 1 1) = 1 ^ 2 /\ 0 < ig_x1 1 1 1 <= 1 /\
  1 / 2 <= 1 / (1 + ig_x1 1 1 1) < 1 /\
  ig_pdf 2 1 1 / Rabs (ig_g' 2 1 1)
  / (ig_pdf 2 1 1 / Rabs (ig_g' 2 1 1) + ig_pdf 2 1 (2 * 2 / 1) / Rabs (ig_g' 2 1 (2 * 2 / 1)))
  = 2 / (2 + 1).
Proof.
  split; [| split; [| split; [| split]]].
  - apply C01_ig_roots_product; lra.
  - apply C01_ig_roots_solve; lra.
  - apply C01_ig_x1_pos; lra.
  - apply C01_ig_choice_prob_range; lra.
  - apply (C01_ig_choice_prob 2 1 1); lra.
Qed.

(* 3. Skew normal (skew_normal.rs:142-161) *)

Theorem C01_skew_def : forall a z1 z2,
  skew_normalized a z1 z2
  = ((1 + a) * Rmax z1 z2 + (1 - a) * Rmin z1 z2) / (sqrt (1 + a * a) * sqrt 2).
Proof. exact skew_def. Qed.
Print Assumptions C01_skew_def.

(* (S + a |D|)/sqrt(1+a^2) with S, D the 45-degree rotation of (z1, z2) *)
Theorem C01_skew_repr : forall a z1 z2,
  skew_normalized a z1 z2
  = ((z1 + z2) / sqrt 2 + a * Rabs ((z1 - z2) / sqrt 2)) / sqrt (1 + a * a).
Proof. exact skew_repr. Qed.
Print Assumptions C01_skew_repr.

Theorem C01_skew_rotation_isometry : forall z1 z2,
  ((z1 + z2) / sqrt 2) ^ 2 + ((z1 - z2) / sqrt 2) ^ 2 = z1 ^ 2 + z2 ^ 2.
Proof. exact skew_rotation_isometry. Qed.
Print Assumptions C01_skew_rotation_isometry.

Theorem C01_skew_shape_one : forall z1 z2, skew_normalized 1 z1 z2 = Rmax z1 z2.
Proof. exact skew_shape_one. Qed.
Print Assumptions C01_skew_shape_one.

Theorem C01_skew_shape_minus_one : forall z1 z2, skew_normalized (-1) z1 z2 = Rmin z1 z2.
Proof. exact skew_shape_minus_one. Qed.
Print Assumptions C01_skew_shape_minus_one.

Theorem C01_skew_max_min_repr : forall z1 z2,
  ((z1 + z2) / sqrt 2 + Rabs ((z1 - z2) / sqrt 2)) / sqrt 2 = Rmax z1 z2 /\
  ((z1 + z2) / sqrt 2 - Rabs ((z1 - z2) / sqrt 2)) / sqrt 2 = Rmin z1 z2.
Proof. exact skew_max_min_repr. Qed.
Print Assumptions C01_skew_max_min_repr.

(* shape 0: the general formula gives S; the code returns z1 without drawing z2 (same N(0,1) law) *)
Theorem C01_skew_shape_zero : forall z1 z2, skew_normalized 0 z1 z2 = (z1 + z2) / sqrt 2.
Proof. exact skew_shape_zero. Qed.
Print Assumptions C01_skew_shape_zero.

Example C01_ex_skew :
  skew_normalized 2 1 3 = ((1 + 3) / sqrt 2 + 2 * Rabs ((1 - 3) / sqrt 2)) / sqrt (1 + 2 * 2) /\
  skew_normalized 1 1 3 = 3 /\ skew_normalized (-1) 1 3 = 1.
Proof.
  split; [| split].
  - apply C01_skew_repr.
  - rewrite C01_skew_shape_one. apply Rmax_right. lra.
  - rewrite C01_skew_shape_minus_one. apply Rmin_left. lra.
Qed.

(* 4. Beta: Cheng's BB / BC (beta.rs:187-266) *)

Theorem C01_bb_defs : forall a b beta gamma lam u v r w,
  bb_V beta u = beta * ln (u / (1 - u)) /\
  bb_W a beta u = a * exp (bb_V beta u) /\
  bb_R gamma v = gamma * v - ln 4 /\
  bb_S a r w = a + r - w /\
  bb_E a b r w = r + (a + b) * ln ((a + b) / (b + w)) /\
  bb_G a lam w = Rpower w lam / (Rpower a lam + Rpower w lam) /\
  bb_g a lam w = lam * Rpower a lam * Rpower w (lam - 1) / (Rpower a lam + Rpower w lam) ^ 2 /\
  bb_f a b w = Rpower w (a - 1) / Rpower (b + w) (a + b) /\
  bb_C a b lam = lam * Rpower (a + b) (a + b) / (4 * Rpower a a).
Proof. exact bb_defs. Qed.
Print Assumptions C01_bb_defs.

Theorem C01_bb_W_pos : forall a beta u1, 0 < a -> 0 < bb_W a beta u1.
Proof. exact bb_W_pos. Qed.
Print Assumptions C01_bb_W_pos.

(* the proposal: W has CDF bb_G (inverse-CDF sampling from u1), with density bb_g *)
Theorem C01_bb_proposal_cdf : forall a beta u1, 0 < a -> 0 < beta -> 0 < u1 < 1 ->
  bb_G a (/ beta) (bb_W a beta u1) = u1.
Proof. exact bb_proposal_cdf. Qed.
Print Assumptions C01_bb_proposal_cdf.

Theorem C01_bb_proposal_density : forall a lam w, 0 < a -> 0 < w ->
  is_derive (bb_G a lam) w (bb_g a lam w).
Proof. exact bb_proposal_density. Qed.
Print Assumptions C01_bb_proposal_density.

(* the target: x^(a-1) (1-x)^(b-1) dx/dw at x = w/(b+w) is b^b * bb_f a b w *)
Theorem C01_beta_prime_kernel : forall a b w, 0 < b -> 0 < w ->
  let x := w / (b + w) in
  is_derive (fun w => w / (b + w)) w (b / (b + w) ^ 2) /\
  Rpower x (a - 1) * Rpower (1 - x) (b - 1) * (b / (b + w) ^ 2) = Rpower b b * bb_f a b w.
Proof. exact beta_prime_kernel. Qed.
Print Assumptions C01_beta_prime_kernel.

Theorem C01_bb_accept_ratio : forall a b beta u1, 0 < a -> 0 < b -> 0 < beta -> 0 < u1 < 1 ->
  let v := bb_V beta u1 in let w := bb_W a beta u1 in
  exp (bb_E a b (bb_R (a + / beta) v) w) / (u1 * u1)
  = bb_C a b (/ beta) * (bb_f a b w / bb_g a (/ beta) w).
Proof. exact bb_accept_ratio. Qed.
Print Assumptions C01_bb_accept_ratio.

(* step 4 of BB accepts  <->  u2 <= C * target(W) / proposal(W) *)
Theorem C01_bb_exact_test : forall a b beta u1 u2,
  0 < a -> 0 < b -> 0 < beta -> 0 < u1 < 1 -> 0 < u2 ->
  let v := bb_V beta u1 in let w := bb_W a beta u1 in
  (ln (u1 * u1 * u2) <= bb_E a b (bb_R (a + / beta) v) w
   <-> u2 <= bb_C a b (/ beta) * (bb_f a b w / bb_g a (/ beta) w)).
Proof. exact bb_exact_test. Qed.
Print Assumptions C01_bb_exact_test.

(* u1 = 1/2 gives w = a, where the acceptance probability is exactly 1 *)
Theorem C01_bb_accept_at_half : forall a b gamma beta, 0 < a -> 0 < b ->
  bb_W a beta (1 / 2) = a /\
  exp (bb_E a b (bb_R gamma (bb_V beta (1 / 2))) (bb_W a beta (1 / 2))) / (1 / 2 * (1 / 2)) = 1.
Proof. exact bb_accept_at_half. Qed.
Print Assumptions C01_bb_accept_at_half.

(* step 5 of BC (beta = 1/b) *)
Theorem C01_bc_exact_test : forall a b u1 u2, 0 < a -> 0 < b -> 0 < u1 < 1 -> 0 < u2 ->
  let v := bb_V (1 / b) u1 in let w := bb_W a (1 / b) u1 in
  (ln (u1 * u1 * u2) <= (a + b) * (ln ((a + b) / (b + w)) + v) - ln 4
   <-> u2 <= bb_C a b b * (bb_f a b w / bb_g a b w)).
Proof. exact bc_exact_test. Qed.
Print Assumptions C01_bc_exact_test.

Theorem C01_bb_key_ineq : forall a b w, 0 < a -> 0 < b -> 0 < w ->
  a - w <= (a + b) * ln ((a + b) / (b + w)).
Proof. exact bb_key_ineq. Qed.
Print Assumptions C01_bb_key_ineq.

(* step 3 (s >= t) and step 2 (s + 1 + ln 5 >= 5 z) only accept what step 4 accepts *)
Theorem C01_bb_squeeze3 : forall a b r w t, 0 < a -> 0 < b -> 0 < w ->
  t <= bb_S a r w -> t <= bb_E a b r w.
Proof. exact bb_squeeze3. Qed.
Print Assumptions C01_bb_squeeze3.

Theorem C01_bb_squeeze2 : forall a b r w z, 0 < a -> 0 < b -> 0 < w -> 0 < z ->
  5 * z <= bb_S a r w + 1 + ln 5 -> ln z <= bb_S a r w /\ ln z <= bb_E a b r w.
Proof. exact bb_squeeze2. Qed.
Print Assumptions C01_bb_squeeze2.

Theorem C01_beta_final_map : forall b w, 0 < b -> 0 < w ->
  0 < w / (b + w) < 1 /\ b / (b + w) = 1 - w / (b + w).
Proof. exact beta_final_map. Qed.
Print Assumptions C01_beta_final_map.

Example C01_ex_bb :
  bb_G 2 (/ (1 / 2)) (bb_W 2 (1 / 2) (1 / 3)) = 1 / 3 /\
  (ln (1 / 3 * (1 / 3) * (1 / 2))
     <= bb_E 2 3 (bb_R (2 + / (1 / 2)) (bb_V (1 / 2) (1 / 3))) (bb_W 2 (1 / 2) (1 / 3))
   <-> 1 / 2 <= bb_C 2 3 (/ (1 / 2))
                * (bb_f 2 3 (bb_W 2 (1 / 2) (1 / 3)) / bb_g 2 (/ (1 / 2)) (bb_W 2 (1 / 2) (1 / 3)))) /\
  (ln 1 <= bb_S 2 0 1 -> ln 1 <= bb_E 2 3 0 1).
Proof.
  split; [| split].
  - apply C01_bb_proposal_cdf; lra.
  - apply (C01_bb_exact_test 2 3 (1 / 2) (1 / 3) (1 / 2)); lra.
  - apply C01_bb_squeeze3; lra.
Qed.

(* chi_squared.rs:126-130 *)
Theorem C01_chi1_square : forall z x, 0 <= x -> (z * z <= x <-> - sqrt x <= z <= sqrt x).
Proof. exact chi1_square. Qed.
Print Assumptions C01_chi1_square.

(* student_t.rs:84-87 *)
Theorem C01_student_t_form : forall dof chi z, 0 < dof -> 0 < chi ->
  z * sqrt (dof / chi) = z / sqrt (chi / dof).
Proof. exact student_t_form. Qed.
Print Assumptions C01_student_t_form.

(* fisher_f.rs:105-107 *)
Theorem C01_fisher_f_form : forall m n x y, 0 < m -> 0 < n -> 0 < y ->
  x / y * (n / m) = (x / m) / (y / n).
Proof. exact fisher_f_form. Qed.
Print Assumptions C01_fisher_f_form.

(* pert.rs:139-169 *)
Theorem C01_pert_defs : forall mn mx mode shape,
  pert_v mn mx mode shape = 1 + shape * (mode - mn) / (mx - mn) /\
  pert_w mn mx mode shape = 1 + shape * (mx - mode) / (mx - mn).
Proof. exact pert_defs. Qed.
Print Assumptions C01_pert_defs.

Theorem C01_pert_affine_beta : forall mn mx mode shape,
  mn < mx -> mn <= mode <= mx -> 0 <= shape ->
  let v := pert_v mn mx mode shape in let w := pert_w mn mx mode shape in
  1 <= v /\ 1 <= w /\ v + w = 2 + shape /\
  (forall B, 0 <= B <= 1 -> mn <= B * (mx - mn) + mn <= mx) /\
  mn + (mx - mn) * (v / (v + w)) = (mn + shape * mode + mx) / (shape + 2).
Proof. exact pert_affine_beta. Qed.
Print Assumptions C01_pert_affine_beta.

Theorem C01_pert_with_mean : forall mn mx mean shape, 0 < shape ->
  let mode := ((shape + 2) * mean - mn - mx) / shape in
  (mn + shape * mode + mx) / (shape + 2) = mean.
Proof. exact pert_with_mean. Qed.
Print Assumptions C01_pert_with_mean.

(* normal_inverse_gaussian.rs:115-117 *)
Theorem C01_nig_mixture_form : forall beta V z x, 0 < V ->
  (beta * V + sqrt V * z <= x <-> z <= (x - beta * V) / sqrt V).
Proof. exact nig_mixture_form. Qed.
Print Assumptions C01_nig_mixture_form.

(* normal.rs: Normal (std_dev of either sign) and LogNormal *)
Theorem C01_normal_affine_event : forall mu s z x,
  (0 < s -> (mu + s * z <= x <-> z <= (x - mu) / s)) /\
  (s < 0 -> (mu + s * z <= x <-> (x - mu) / s <= z)).
Proof. exact normal_affine_event. Qed.
Print Assumptions C01_normal_affine_event.

Theorem C01_normal_negative_std : forall mu s z, s < 0 -> mu + s * z = mu + Rabs s * (- z).
Proof. exact normal_negative_std. Qed.
Print Assumptions C01_normal_negative_std.

Theorem C01_lognormal_exp : forall mu s z x, 0 < s -> 0 < x ->
  (exp (mu + s * z) <= x <-> z <= (ln x - mu) / s).
Proof. exact lognormal_exp. Qed.
Print Assumptions C01_lognormal_exp.

Example C01_ex_forms :
  (3 * 3 <= 16 <-> - sqrt 16 <= 3 <= sqrt 16) /\
  2 * sqrt (5 / 7) = 2 / sqrt (7 / 5) /\
  3 / 4 * (6 / 5) = (3 / 5) / (4 / 6) /\
  pert_v 0 10 3 4 + pert_w 0 10 3 4 = 2 + 4 /\
  (1 / 2 * 4 + sqrt 4 * 1 <= 5 <-> 1 <= (5 - 1 / 2 * 4) / sqrt 4) /\
  (1 + -2 * 3 <= 0 <-> (0 - 1) / -2 <= 3) /\
  (exp (1 + 2 * 0) <= 3 <-> 0 <= (ln 3 - 1) / 2).
Proof.
  repeat split.
  - apply C01_chi1_square; lra.
  - apply C01_chi1_square; lra.
  - intros H. apply (C01_chi1_square 3 16); lra.
  - apply C01_student_t_form; lra.
  - apply C01_fisher_f_form; lra.
  - apply (C01_pert_affine_beta 0 10 3 4); lra.
  - apply (C01_nig_mixture_form (1 / 2) 4 1 5); lra.
  - apply (C01_nig_mixture_form (1 / 2) 4 1 5); lra.
  - apply (C01_normal_affine_event 1 (-2) 3 0); lra.
  - apply (C01_normal_affine_event 1 (-2) 3 0); lra.
  - apply (C01_lognormal_exp 1 2 0 3); lra.
  - apply (C01_lognormal_exp 1 2 0 3); lra.
Qed.
