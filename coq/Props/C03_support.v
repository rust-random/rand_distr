(* Props/C03_support.v — part of property C03 on the ideal real-number models (Model/Continuous.v):
   every result `(e, rest)` that the exact semantics `evals` (Base/Run.v) can produce, and whose
   expression e denotes a real number x (evalX e = Xreal x), lies in the support.
   Statements only; proofs in Proofs/Support.v.
     dyR q          real value of the dyadic parameter q = (m, e): m * 2^e      (Proofs/LawsInvCdf.v)
     word w         0 <= w < 2^64
     allsem P r     P holds of every result of the exact semantics of the tree r                      *)
From Coq Require Import Reals ZArith List Lra.
From Interval Require Import Xreal.
From RD Require Import Base.Expr Base.Run Model.Sampler Model.Continuous Gen.ZigTables Proofs.LawsInvCdf Proofs.Support Proofs.SupportMore.
Import ListNotations.
Open Scope R_scope.

Theorem C03_allsem_meaning : forall A (P : A -> Prop) r, allsem P r <-> forall v, evals r v -> P v.
Proof. exact @allsem_evals. Qed.

(* Beta(alpha, beta): both reflections, both algorithms (Cheng BB and BC) *)
Theorem C03_beta_in_unit : forall t alpha beta ws e rest x,
  0 < dyR alpha -> 0 < dyR beta ->
  evals (Continuous.beta t alpha beta ws) (e, rest) -> evalX e = Xreal x -> 0 <= x <= 1.
Proof. exact beta_in_unit. Qed.
Theorem C03_beta_in_open_unit : forall t alpha beta ws e rest x,
  0 < dyR alpha -> 0 < dyR beta ->
  evals (Continuous.beta t alpha beta ws) (e, rest) -> evalX e = Xreal x -> 0 < x < 1.
Proof. exact beta_in_open_unit. Qed.
(* every W returned by the two rejection loops is a * exp(v), for all fuel and all word lists *)
Theorem C03_beta_loops_return_a_exp : forall fuel t a b alpha beta g k1 k2 ws,
  allsem (fun p => exists v, fst p = Bin Mul a (Un Exp v)) (beta_bb fuel t a b alpha beta g ws) /\
  allsem (fun p => exists v, fst p = Bin Mul a (Un Exp v)) (beta_bc fuel t a b alpha beta k1 k2 ws).
Proof. exact (fun fuel t a b alpha beta g k1 k2 ws =>
  conj (beta_bb_leaves fuel t a b alpha beta g ws) (beta_bc_leaves fuel t a b alpha beta k1 k2 ws)). Qed.

(* Exp1, Exp(lambda) >= 0; the table entries of the exponential ziggurat are nonnegative (computed) *)
Theorem C03_zig_exp_table_nonneg : Forall (fun q => (0 <= fst q)%Z) ZIG_EXP_X /\ 0 <= dyR ZIG_EXP_R.
Proof. exact (conj ZIG_EXP_X_nonneg ZIG_EXP_R_nonneg). Qed.
Theorem C03_exp1_nonneg : forall t ws e rest x,
  Forall word ws -> evals (exp1 t ws) (e, rest) -> evalX e = Xreal x -> 0 <= x.
Proof. exact exp1_nonneg. Qed.
Theorem C03_exp_nonneg : forall t lambda ws e rest x,
  0 < dyR lambda -> Forall word ws ->
  evals (exp_lambda t lambda ws) (e, rest) -> evalX e = Xreal x -> 0 <= x.
Proof. exact exp_nonneg. Qed.

(* Gamma (all three representations), ChiSquared >= 0; the Marsaglia-Tsang variate is positive *)
Theorem C03_gamma_unscaled_pos : forall fuel t c d ws,
  allsem (fun p => forall x, evalX (fst p) = Xreal x -> 0 < x) (gamma_unscaled fuel t c d ws).
Proof. exact gamma_unscaled_leaves. Qed.
Theorem C03_gamma_nonneg : forall t shape scale ws e rest x,
  0 < dyR shape -> 0 < dyR scale -> Forall word ws ->
  evals (gamma t shape scale ws) (e, rest) -> evalX e = Xreal x -> 0 <= x.
Proof. exact gamma_nonneg. Qed.
Theorem C03_chi_squared_nonneg : forall t k ws e rest x,
  0 < dyR k -> Forall word ws ->
  evals (chi_squared t k ws) (e, rest) -> evalX e = Xreal x -> 0 <= x.
Proof. exact chi_squared_nonneg. Qed.

Theorem C03_weibull_nonneg : forall t scale shape ws e rest x,
  0 < dyR scale -> evals (weibull t scale shape ws) (e, rest) -> evalX e = Xreal x -> 0 <= x.
Proof. exact weibull_nonneg. Qed.
Theorem C03_weibull_pos : forall t scale shape ws e rest x,
  0 < dyR scale -> evals (weibull t scale shape ws) (e, rest) -> evalX e = Xreal x -> 0 < x.
Proof. exact weibull_pos. Qed.
Theorem C03_pareto_ge_scale : forall t scale shape ws e rest x,
  0 < dyR scale -> 0 < dyR shape -> Forall word ws ->
  evals (pareto t scale shape ws) (e, rest) -> evalX e = Xreal x -> dyR scale <= x.
Proof. exact pareto_ge_scale. Qed.
Theorem C03_frechet_gt_loc : forall t loc scale shape ws e rest x,
  0 < dyR scale -> evals (frechet t loc scale shape ws) (e, rest) -> evalX e = Xreal x -> dyR loc < x.
Proof. exact frechet_gt_loc. Qed.
Theorem C03_triangular_in_range : forall t mn mx mode ws e rest x,
  dyR mn < dyR mx -> dyR mn <= dyR mode <= dyR mx -> Forall word ws ->
  evals (triangular t mn mx mode ws) (e, rest) -> evalX e = Xreal x -> dyR mn <= x <= dyR mx.
Proof. exact triangular_in_range. Qed.
(* Pert = min + Beta(v, w) * (max - min) *)
Theorem C03_pert_in_range : forall t mn mx mode shape ws e rest x,
  dyR mn < dyR mx -> dyR mn <= dyR mode <= dyR mx -> 0 <= dyR shape ->
  evals (pert t mn mx mode shape ws) (e, rest) -> evalX e = Xreal x -> dyR mn <= x <= dyR mx.
Proof. exact pert_in_range. Qed.

(* exact comparison of dyadic parameters used by the models' parameter tests *)
Theorem C03_dy_cmp_spec : forall a b, dy_cmp a b = Raux.Rcompare (dyR a) (dyR b).
Proof. exact dy_cmp_spec. Qed.

(* examples: the hypotheses are satisfiable, and a concrete result *)
Example C03_ex_hyps :
  0 < dyR (2, 0)%Z /\ 0 < dyR (1, -1)%Z /\ Forall word [0; 2 ^ 63; 2 ^ 64 - 1]%Z /\
  dyR (0, 0)%Z < dyR (4, 0)%Z /\ dyR (0, 0)%Z <= dyR (1, 0)%Z <= dyR (4, 0)%Z.
Proof.
  unfold dyR, word. simpl. repeat split; try lra; repeat constructor; try discriminate; reflexivity.
Qed.
(* Weibull(scale 2, shape 1) on the word 0 is 2 * (-ln 2^-53)^(1/1): a result exists, so the theorem
   is not vacuous, and it is positive *)
Example C03_ex_weibull : exists e x,
  evals (weibull F64 (2, 0)%Z (1, 0)%Z [0%Z]) (e, []) /\ evalX e = Xreal x /\ 0 < x.
Proof.
  assert (word 0%Z) as W by (unfold word; split; [discriminate|reflexivity]).
  assert (uR_oc F64 0%Z < 1) as U.
  { unfold uR_oc. change (0 / 2 ^ 11)%Z with 0%Z. rewrite Rplus_0_l. apply div_lt_1; [apply pow_lt; lra|].
    apply Rlt_pow_R1; [lra|]. repeat constructor. }
  assert (0 < dyR (2, 0)%Z /\ 0 < dyR (1, 0)%Z) as [H2 H1] by (unfold dyR; simpl; lra).
  pose proof (weibull_value F64 (2, 0)%Z (1, 0)%Z 0%Z H2 H1 W U) as V.
  assert (evals (weibull F64 (2, 0)%Z (1, 0)%Z [0%Z]) (weibull_expr F64 (2, 0)%Z (1, 0)%Z 0%Z, [])) as E
    by (rewrite weibull_run; constructor).
  exists (weibull_expr F64 (2, 0)%Z (1, 0)%Z 0%Z), (Q_weibull (dyR (2, 0)%Z) (dyR (1, 0)%Z) (uR_oc F64 0%Z)).
  split; [exact E|]. split; [exact V|]. exact (weibull_pos _ _ _ _ _ _ _ H2 E V).
Qed.

(* LogNormal > 0, FisherF >= 0, InverseGaussian > 0 (both Michael-Schucany-Haas roots) *)
Theorem C03_lognormal_pos : forall t mu sigma ws e rest x,
  evals (lognormal t mu sigma ws) (e, rest) -> evalX e = Xreal x -> 0 < x.
Proof. exact lognormal_pos. Qed.
Theorem C03_fisher_f_nonneg : forall t m n ws e rest x,
  0 < dyR m -> 0 < dyR n -> Forall word ws ->
  evals (fisher_f t m n ws) (e, rest) -> evalX e = Xreal x -> 0 <= x.
Proof. exact fisher_f_nonneg. Qed.
Theorem C03_inverse_gaussian_pos : forall t mean shape ws e rest x,
  0 < dyR mean -> 0 < dyR shape ->
  evals (inverse_gaussian t mean shape ws) (e, rest) -> evalX e = Xreal x -> 0 < x.
Proof. exact inverse_gaussian_pos. Qed.

(* the exponential tail routine of the ziggurat is defined and finite for EVERY word (repair of finding F5: the draw is
   Open01, so ln never sees 0) and its value exceeds the tail start r *)
Theorem C03_exp_tail_defined : forall um u w ws, word w ->
  exists x, evals (exp_zero um u (w :: ws)) (Bin Sub (dyx ZIG_EXP_R) (eln (u_open F64 w)), ws) /\
            evalX (Bin Sub (dyx ZIG_EXP_R) (eln (u_open F64 w))) = Xreal x /\ dyR ZIG_EXP_R < x.
Proof. exact exp_zero_defined. Qed.
Print Assumptions C03_exp_tail_defined.
Print Assumptions C03_lognormal_pos.
Print Assumptions C03_fisher_f_nonneg.
Print Assumptions C03_inverse_gaussian_pos.
Print Assumptions C03_allsem_meaning.
Print Assumptions C03_beta_in_unit.
Print Assumptions C03_beta_in_open_unit.
Print Assumptions C03_beta_loops_return_a_exp.
Print Assumptions C03_zig_exp_table_nonneg.
Print Assumptions C03_exp1_nonneg.
Print Assumptions C03_exp_nonneg.
Print Assumptions C03_gamma_unscaled_pos.
Print Assumptions C03_gamma_nonneg.
Print Assumptions C03_chi_squared_nonneg.
Print Assumptions C03_weibull_nonneg.
Print Assumptions C03_weibull_pos.
Print Assumptions C03_pareto_ge_scale.
Print Assumptions C03_frechet_gt_loc.
Print Assumptions C03_triangular_in_range.
Print Assumptions C03_pert_in_range.
Print Assumptions C03_dy_cmp_spec.
