(* Props/C06_identity.v — the ziggurat identity behind StandardNormal / Exp1 (utils.rs:62-96,
   normal.rs:62-90, exponential.rs:65-85).  Statements only; proofs in Proofs/ZigBits.v (integers,
   axiom-free) and Proofs/ZigIdentity.v (reals).

   Vocabulary (Fixpoints of Proofs/ZigIdentity.v; their defining equations are restated below as
   C06_rect_sum_def, C06_rect_sum_test_def, C06_rect_sum_sym_def):
     rect_sum X k        = sum_{i<k} / X i
     rect_sum_test X x n = sum_{i<n} (if x < X (S i) then / X i else 0)
     rect_sum_sym X k    = sum_{i<k} / (2 * X i)
   Tables as in the code: X decreasing with X N = 0 (N = 256), Fv i = f (X i) increasing,
   v = common area of the layers, r = X 1, T = tail mass beyond r.                             *)
From Coq Require Import ZArith Reals.
From RD Require Import Proofs.ZigBits Proofs.ZigIdentity.

(* Part A: bits -> (layer, mantissa), integers *)
Open Scope Z_scope.

Theorem C06_zig_bits_independent : forall w, 0 <= w < 2^64 ->
  (0 <= w mod 256 < 256 /\ 0 <= w / 2^12 < 2^52) /\
  forall i k, 0 <= i < 256 -> 0 <= k < 2^52 ->
    (w mod 256 = i /\ w / 2^12 = k <->
     exists j, 0 <= j < 16 /\ w = k * 2^12 + j * 2^8 + i).
Proof. exact zig_bits_independent. Qed.
Print Assumptions C06_zig_bits_independent.

Theorem C06_zig_bits_sixteen : forall i k, 0 <= i < 256 -> 0 <= k < 2^52 ->
  (forall j, 0 <= j < 16 ->
     let w := k * 2^12 + j * 2^8 + i in
     0 <= w < 2^64 /\ w mod 256 = i /\ w / 2^12 = k) /\
  (forall j j', 0 <= j < 16 -> 0 <= j' < 16 ->
     k * 2^12 + j * 2^8 + i = k * 2^12 + j' * 2^8 + i -> j = j') /\
  (forall w, 0 <= w < 2^64 -> w mod 256 = i -> w / 2^12 = k ->
     exists j, 0 <= j < 16 /\ w = k * 2^12 + j * 2^8 + i).
Proof. exact zig_bits_sixteen. Qed.
Print Assumptions C06_zig_bits_sixteen.

Theorem C06_zig_u_range : forall k, 0 <= k < 2^52 ->
  (- 2^51 <= k - 2^51 < 2^51) /\ (0 < 2 * k + 1 < 2^53).
Proof. exact zig_u_range. Qed.
Print Assumptions C06_zig_u_range.

Theorem C06_zig_u_grid : forall k k',
  (k - 2^51 = k' - 2^51 -> k = k') /\ (2 * k + 1 = 2 * k' + 1 -> k = k').
Proof. exact zig_u_grid. Qed.
Print Assumptions C06_zig_u_grid.

Close Scope Z_scope.

(* Part B: density identity, reals *)
Open Scope R_scope.

Theorem C06_rect_sum_def : forall X : nat -> R,
  rect_sum X 0 = 0 /\ forall k, rect_sum X (S k) = rect_sum X k + / X k.
Proof. exact rect_sum_def. Qed.
Print Assumptions C06_rect_sum_def.

Theorem C06_rect_sum_test_def : forall (X : nat -> R) (x : R),
  rect_sum_test X x 0 = 0 /\
  forall n, rect_sum_test X x (S n) = rect_sum_test X x n + (if Rlt_dec x (X (S n)) then / X n else 0).
Proof. exact rect_sum_test_def. Qed.
Print Assumptions C06_rect_sum_test_def.

Theorem C06_rect_sum_sym_def : forall X : nat -> R,
  rect_sum_sym X 0 = 0 /\ forall k, rect_sum_sym X (S k) = rect_sum_sym X k + / (2 * X k).
Proof. exact rect_sum_sym_def. Qed.
Print Assumptions C06_rect_sum_sym_def.

(* the table hypotheses used below are jointly satisfiable *)
Theorem C06_zig_hyps_nonvacuous : exists (N : nat) (X Fv : nat -> R) (f : R -> R) (v T : R),
  (2 <= N)%nat /\
  (forall i, (i < N)%nat -> 0 < X i) /\
  (forall i, (i < N)%nat -> X (S i) < X i) /\
  X N = 0 /\
  0 < v /\
  X 0%nat * Fv 1%nat = v /\
  (forall i, (1 <= i < N)%nat -> X i * (Fv (S i) - Fv i) = v) /\
  (forall i, (1 <= i <= N)%nat -> Fv i = f (X i)) /\
  (forall a b, 0 <= a -> a <= b -> b <= X 1%nat -> f b <= f a) /\
  0 < T /\ X 1%nat * Fv 1%nat + T = v.
Proof. exact zig_hyps_nonvacuous. Qed.
Print Assumptions C06_zig_hyps_nonvacuous.

(* X is strictly decreasing on 0..N *)
Theorem C06_X_antitone : forall (N : nat) (X : nat -> R),
  (2 <= N)%nat ->
  (forall i, (i < N)%nat -> X (S i) < X i) ->
  forall i j, (i < j)%nat -> (j <= N)%nat -> X j < X i.
Proof. exact X_antitone. Qed.
Print Assumptions C06_X_antitone.

(* telescoping: sum_{i<k} 1/X i = Fv k / v *)
Theorem C06_rect_sum_telescope : forall (N : nat) (X Fv : nat -> R) (v : R),
  (2 <= N)%nat ->
  (forall i, (i < N)%nat -> 0 < X i) ->
  0 < v ->
  X 0%nat * Fv 1%nat = v ->
  (forall i, (1 <= i < N)%nat -> X i * (Fv (S i) - Fv i) = v) ->
  forall k, (1 <= k <= N)%nat -> rect_sum X k = Fv k / v.
Proof. exact rect_sum_telescope. Qed.
Print Assumptions C06_rect_sum_telescope.

(* for x in [X (S k), X k) the rectangle test x < X (S i) succeeds exactly for the layers i < k *)
Theorem C06_zig_rect_layers : forall (N : nat) (X : nat -> R),
  (2 <= N)%nat ->
  (forall i, (i < N)%nat -> X (S i) < X i) ->
  forall (k : nat) (x : R), (k < N)%nat -> X (S k) <= x < X k ->
  forall i, (i < N)%nat -> (x < X (S i) <-> (i < k)%nat).
Proof. exact zig_rect_layers. Qed.
Print Assumptions C06_zig_rect_layers.

Theorem C06_rect_sum_test_eq : forall (N : nat) (X : nat -> R),
  (2 <= N)%nat ->
  (forall i, (i < N)%nat -> X (S i) < X i) ->
  forall (k : nat) (x : R), (k < N)%nat -> X (S k) <= x < X k ->
  rect_sum_test X x N = rect_sum X k.
Proof. exact rect_sum_test_eq. Qed.
Print Assumptions C06_rect_sum_test_eq.

(* the wedge acceptance probability (f x - Fv k)/(Fv (S k) - Fv k) lies in [0,1] *)
Theorem C06_zig_wedge_prob_range : forall (N : nat) (X Fv : nat -> R) (f : R -> R) (v : R),
  (2 <= N)%nat ->
  (forall i, (i < N)%nat -> 0 < X i) ->
  (forall i, (i < N)%nat -> X (S i) < X i) ->
  X N = 0 ->
  0 < v ->
  (forall i, (1 <= i < N)%nat -> X i * (Fv (S i) - Fv i) = v) ->
  (forall i, (1 <= i <= N)%nat -> Fv i = f (X i)) ->
  (forall a b, 0 <= a -> a <= b -> b <= X 1%nat -> f b <= f a) ->
  forall (k : nat) (x : R), (1 <= k < N)%nat -> X (S k) <= x < X k ->
  0 <= (f x - Fv k) / (Fv (S k) - Fv k) <= 1.
Proof. exact zig_wedge_prob_range. Qed.
Print Assumptions C06_zig_wedge_prob_range.

(* body, one-sided: rectangles of layers < k plus wedge of layer k give f x / (N v) *)
Theorem C06_zig_density_identity : forall (N : nat) (X Fv : nat -> R) (f : R -> R) (v : R),
  (2 <= N)%nat ->
  (forall i, (i < N)%nat -> 0 < X i) ->
  0 < v ->
  X 0%nat * Fv 1%nat = v ->
  (forall i, (1 <= i < N)%nat -> X i * (Fv (S i) - Fv i) = v) ->
  forall (k : nat) (x : R), (1 <= k < N)%nat ->
  (rect_sum X k + / X k * (f x - Fv k) / (Fv (S k) - Fv k)) / INR N = f x / (INR N * v).
Proof. exact zig_density_identity. Qed.
Print Assumptions C06_zig_density_identity.

(* the same, the rectangle layers being selected by the code's test over all N layers *)
Theorem C06_zig_density_identity_test : forall (N : nat) (X Fv : nat -> R) (f : R -> R) (v : R),
  (2 <= N)%nat ->
  (forall i, (i < N)%nat -> 0 < X i) ->
  (forall i, (i < N)%nat -> X (S i) < X i) ->
  0 < v ->
  X 0%nat * Fv 1%nat = v ->
  (forall i, (1 <= i < N)%nat -> X i * (Fv (S i) - Fv i) = v) ->
  forall (k : nat) (x : R), (1 <= k < N)%nat -> X (S k) <= x < X k ->
  (rect_sum_test X x N + / X k * (f x - Fv k) / (Fv (S k) - Fv k)) / INR N = f x / (INR N * v).
Proof. exact zig_density_identity_test. Qed.
Print Assumptions C06_zig_density_identity_test.

Theorem C06_rect_sum_sym_half : forall (N : nat) (X : nat -> R),
  (2 <= N)%nat ->
  (forall i, (i < N)%nat -> 0 < X i) ->
  forall k, (k <= N)%nat -> rect_sum_sym X k = rect_sum X k / 2.
Proof. exact rect_sum_sym_half. Qed.
Print Assumptions C06_rect_sum_sym_half.

(* body, symmetric: proposal density 1/(2 X i), target density f|x| / 2 *)
Theorem C06_zig_density_identity_sym : forall (N : nat) (X Fv : nat -> R) (f : R -> R) (v : R),
  (2 <= N)%nat ->
  (forall i, (i < N)%nat -> 0 < X i) ->
  0 < v ->
  X 0%nat * Fv 1%nat = v ->
  (forall i, (1 <= i < N)%nat -> X i * (Fv (S i) - Fv i) = v) ->
  forall (k : nat) (x : R), (1 <= k < N)%nat ->
  (rect_sum_sym X k + / (2 * X k) * (f (Rabs x) - Fv k) / (Fv (S k) - Fv k)) / INR N
  = (f (Rabs x) / 2) / (INR N * v).
Proof. exact zig_density_identity_sym. Qed.
Print Assumptions C06_zig_density_identity_sym.

(* layer 0: P(tail branch) * tail density = f x / (N v), given base strip = X 1 * Fv 1 + T = v *)
Theorem C06_zig_tail_identity : forall (N : nat) (X Fv : nat -> R) (v : R),
  (2 <= N)%nat ->
  (forall i, (i < N)%nat -> 0 < X i) ->
  0 < v ->
  X 0%nat * Fv 1%nat = v ->
  forall T fx : R, 0 < T -> X 1%nat * Fv 1%nat + T = v ->
  / INR N * (1 - X 1%nat / X 0%nat) * (fx / T) = fx / (INR N * v).
Proof. exact zig_tail_identity. Qed.
Print Assumptions C06_zig_tail_identity.

Theorem C06_zig_tail_identity_sym : forall (N : nat) (X Fv : nat -> R) (v : R),
  (2 <= N)%nat ->
  (forall i, (i < N)%nat -> 0 < X i) ->
  0 < v ->
  X 0%nat * Fv 1%nat = v ->
  forall T fx : R, 0 < T -> X 1%nat * Fv 1%nat + T = v ->
  / INR N * (1 - X 1%nat / X 0%nat) * (/ 2 * (fx / T)) = (fx / 2) / (INR N * v).
Proof. exact zig_tail_identity_sym. Qed.
Print Assumptions C06_zig_tail_identity_sym.

Theorem C06_zig_tail_prob_range : forall (N : nat) (X : nat -> R),
  (2 <= N)%nat ->
  (forall i, (i < N)%nat -> 0 < X i) ->
  (forall i, (i < N)%nat -> X (S i) < X i) ->
  0 < 1 - X 1%nat / X 0%nat < 1.
Proof. exact zig_tail_prob_range. Qed.
Print Assumptions C06_zig_tail_prob_range.

(* exponential.rs:75  r - ln u :  {r - ln u <= x} = {e^{-(x-r)} <= u}, so the cdf is 1 - e^{-(x-r)} *)
Theorem C06_exp_tail_event : forall r u x, 0 < u ->
  (r - ln u <= x <-> exp (- (x - r)) <= u).
Proof. exact exp_tail_event. Qed.
Print Assumptions C06_exp_tail_event.

Theorem C06_exp_tail_density : forall r x, exp (- (x - r)) = exp (- x) / exp (- r).
Proof. exact exp_tail_density. Qed.
Print Assumptions C06_exp_tail_density.

(* normal.rs:77-83 (Marsaglia): proposal -ln(u1)/r has cdf 1 - e^{-r x} *)
Theorem C06_normal_tail_proposal : forall r u1 x, 0 < r -> 0 < u1 ->
  (- ln u1 / r <= x <-> exp (- (r * x)) <= u1).
Proof. exact normal_tail_proposal. Qed.
Print Assumptions C06_normal_tail_proposal.

(* the loop exits iff u2 <= e^{-x^2/2} *)
Theorem C06_normal_tail_accept : forall u2 x, 0 < u2 ->
  (~ (-2 * ln u2 < x * x) <-> u2 <= exp (- (x * x) / 2)).
Proof. exact normal_tail_accept. Qed.
Print Assumptions C06_normal_tail_accept.

Theorem C06_normal_tail_accept_code : forall r u1 u2, 0 < u2 ->
  let x := - ln u1 / r in
  (~ (-2 * ln u2 < (ln u1 / r) * (ln u1 / r)) <-> u2 <= exp (- (x * x) / 2)).
Proof. exact normal_tail_accept_code. Qed.
Print Assumptions C06_normal_tail_accept_code.

(* proposal density * acceptance probability is proportional to the normal density at r + x *)
Theorem C06_normal_tail_density : forall r x,
  r * exp (- (r * x)) * exp (- (x * x) / 2) = r * exp (r * r / 2) * exp (- ((x + r) * (x + r)) / 2).
Proof. exact normal_tail_density. Qed.
Print Assumptions C06_normal_tail_density.
