(* Props/C12.v — unit geometry: UnitCircle / UnitSphere outputs have norm one, UnitDisc / UnitBall
   outputs have norm at most one — on ideal reals and for every result of the exact semantics of
   the models of Model/Multi.v (which Model/Multi.mcase compares with the crate).              *)
From Coq Require Import Reals ZArith List.
From Interval Require Import Xreal.
From RD Require Import Base.Expr Base.Run Model.Sampler Model.Multi Proofs.MultiProofs.
Import ListNotations.
Local Open Scope R_scope.

Theorem C12_circle_norm : forall x1 x2 : R, x1 * x1 + x2 * x2 <> 0 ->
  let s := x1 * x1 + x2 * x2 in
  ((x1 * x1 - x2 * x2) / s) ^ 2 + (2 * x1 * x2 / s) ^ 2 = 1.
Proof. exact circle_norm. Qed.
Print Assumptions C12_circle_norm.

Theorem C12_sphere_norm : forall x1 x2 : R, 0 <= x1 * x1 + x2 * x2 < 1 ->
  let s := x1 * x1 + x2 * x2 in
  let factor := 2 * sqrt (1 - s) in
  (x1 * factor) ^ 2 + (x2 * factor) ^ 2 + (1 - 2 * s) ^ 2 = 1.
Proof. exact sphere_norm. Qed.
Print Assumptions C12_sphere_norm.

Theorem C12_disc_ball_norm :
  (forall x1 x2, rcmp CLe (x1 * x1 + x2 * x2) 1 = true -> x1 ^ 2 + x2 ^ 2 <= 1) /\
  (forall x1 x2 x3, rcmp CLe (x1 * x1 + x2 * x2 + x3 * x3) 1 = true -> x1 ^ 2 + x2 ^ 2 + x3 ^ 2 <= 1).
Proof. exact disc_ball_norm. Qed.
Print Assumptions C12_disc_ball_norm.

Theorem C12_circle_angle_doubling : forall r theta : R, 0 < r ->
  let x1 := r * cos theta in let x2 := r * sin theta in
  let s := x1 * x1 + x2 * x2 in
  (x1 * x1 - x2 * x2) / s = cos (2 * theta) /\ 2 * x1 * x2 / s = sin (2 * theta).
Proof. exact circle_angle_doubling. Qed.
Print Assumptions C12_circle_angle_doubling.

Theorem C12_sphere_z_linear : forall x1 x2 : R, 0 <= x1 * x1 + x2 * x2 < 1 ->
  let s := x1 * x1 + x2 * x2 in
  nth 2 [x1 * (2 * sqrt (1 - s)); x2 * (2 * sqrt (1 - s)); 1 - 2 * s] 0 = 1 - 2 * s /\ -1 < 1 - 2 * s <= 1.
Proof. exact sphere_z_linear. Qed.
Print Assumptions C12_sphere_z_linear.

Theorem C12_u_pm1_range : forall t w, (0 <= w < 2 ^ 64)%Z ->
  exists r, evalX (u_pm1 t w) = Xreal r /\ -1 <= r < 1.
Proof. exact u_pm1_range. Qed.
Print Assumptions C12_u_pm1_range.

Theorem C12_unit_circle_norm : forall t ws e1 e2 rest a b,
  evals (unit_circle t ws) ([e1; e2], rest) -> evalX e1 = Xreal a -> evalX e2 = Xreal b -> a ^ 2 + b ^ 2 = 1.
Proof. exact unit_circle_norm. Qed.
Print Assumptions C12_unit_circle_norm.

Theorem C12_unit_sphere_norm : forall t ws e1 e2 e3 rest a b c,
  evals (unit_sphere t ws) ([e1; e2; e3], rest) ->
  evalX e1 = Xreal a -> evalX e2 = Xreal b -> evalX e3 = Xreal c -> a ^ 2 + b ^ 2 + c ^ 2 = 1.
Proof. exact unit_sphere_norm. Qed.
Print Assumptions C12_unit_sphere_norm.

Theorem C12_unit_disc_norm : forall t ws e1 e2 rest a b,
  evals (unit_disc t ws) ([e1; e2], rest) -> evalX e1 = Xreal a -> evalX e2 = Xreal b -> a ^ 2 + b ^ 2 <= 1.
Proof. exact unit_disc_norm. Qed.
Print Assumptions C12_unit_disc_norm.

Theorem C12_unit_ball_norm : forall t ws e1 e2 e3 rest a b c,
  evals (unit_ball t ws) ([e1; e2; e3], rest) ->
  evalX e1 = Xreal a -> evalX e2 = Xreal b -> evalX e3 = Xreal c -> a ^ 2 + b ^ 2 + c ^ 2 <= 1.
Proof. exact unit_ball_norm. Qed.
Print Assumptions C12_unit_ball_norm.

(* every result has exactly 2 (resp. 3) components *)
Theorem C12_unit_circle_shape : forall t ws out rest, evals (unit_circle t ws) (out, rest) ->
  exists e1 e2, out = [e1; e2] /\ forall a b, evalX e1 = Xreal a -> evalX e2 = Xreal b -> a ^ 2 + b ^ 2 = 1.
Proof. exact unit_circle_on_circle. Qed.
Print Assumptions C12_unit_circle_shape.

Theorem C12_unit_sphere_shape : forall t ws out rest, evals (unit_sphere t ws) (out, rest) ->
  exists e1 e2 e3, out = [e1; e2; e3] /\
    forall a b c, evalX e1 = Xreal a -> evalX e2 = Xreal b -> evalX e3 = Xreal c -> a ^ 2 + b ^ 2 + c ^ 2 = 1.
Proof. exact unit_sphere_on_sphere. Qed.
Print Assumptions C12_unit_sphere_shape.

Theorem C12_unit_disc_shape : forall t ws out rest, evals (unit_disc t ws) (out, rest) ->
  exists e1 e2, out = [e1; e2] /\ forall a b, evalX e1 = Xreal a -> evalX e2 = Xreal b -> a ^ 2 + b ^ 2 <= 1.
Proof. exact unit_disc_in_disc. Qed.
Print Assumptions C12_unit_disc_shape.

Theorem C12_unit_ball_shape : forall t ws out rest, evals (unit_ball t ws) (out, rest) ->
  exists e1 e2 e3, out = [e1; e2; e3] /\
    forall a b c, evalX e1 = Xreal a -> evalX e2 = Xreal b -> evalX e3 = Xreal c -> a ^ 2 + b ^ 2 + c ^ 2 <= 1.
Proof. exact unit_ball_in_ball. Qed.
Print Assumptions C12_unit_ball_shape.

(* UnitCircle never returns NaN: every result consists of two REAL numbers on the circle (the origin candidate, which
   would give 0/0, is rejected by the crate since its fix 4622ae6, finding F18) *)
Theorem C12_unit_circle_real : forall t ws out rest, evals (unit_circle t ws) (out, rest) ->
  exists e1 e2 a b, out = [e1; e2] /\ evalX e1 = Xreal a /\ evalX e2 = Xreal b /\ a ^ 2 + b ^ 2 = 1.
Proof. exact unit_circle_real. Qed.
Print Assumptions C12_unit_circle_real.

(* the words that make both draws exactly 0 are skipped like any rejected candidate *)
Theorem C12_circle_origin_rejected : forall t ws out,
  evals (unit_circle t (2 ^ 63 :: 2 ^ 63 :: ws)%Z) out <-> evals (unit_circle_loop 63 t ws) out.
Proof. exact circle_origin_rejected. Qed.
Print Assumptions C12_circle_origin_rejected.

(* the point (3/5, 1/5) of the disc goes to (4/5, 3/5) on the circle *)
Example C12_circle_instance :
  let x1 := 3 / 5 in let x2 := 1 / 5 in let s := x1 * x1 + x2 * x2 in
  (x1 * x1 - x2 * x2) / s = 4 / 5 /\ 2 * x1 * x2 / s = 3 / 5 /\ (4 / 5) ^ 2 + (3 / 5) ^ 2 = 1.
Proof. cbv zeta. repeat split; field. Qed.

(* s = 9/25 + 16/100 ... : x1 = 3/10, x2 = 4/10, s = 1/4, factor = 2 sqrt(3/4): third coordinate 1/2 *)
Example C12_sphere_instance :
  let x1 := 3 / 10 in let x2 := 4 / 10 in let s := x1 * x1 + x2 * x2 in
  s = 1 / 4 /\ 1 - 2 * s = 1 / 2 /\
  (x1 * (2 * sqrt (1 - s))) ^ 2 + (x2 * (2 * sqrt (1 - s))) ^ 2 + (1 - 2 * s) ^ 2 = 1.
Proof.
  cbv zeta. split; [field|]. split; [field|].
  apply (C12_sphere_norm (3 / 10) (4 / 10)). split.
  - apply Rplus_le_le_0_compat; apply Rle_0_sqr.
  - replace (3 / 10 * (3 / 10) + 4 / 10 * (4 / 10)) with (1 / 4) by field.
    apply Rmult_lt_reg_r with 4; [apply IZR_lt; reflexivity|].
    replace (1 / 4 * 4) with 1 by field. rewrite Rmult_1_l. apply IZR_lt. reflexivity.
Qed.

(* the model on two concrete words: w1 = 2^63 + 2^62 (x1 = 1/2), w2 = 2^62 (x2 = -1/2): accepted at once *)
Example C12_draw_instance :
  evalX (u_pm1 F64 (2 ^ 63 + 2 ^ 62)) = Xreal (1 / 2) /\ evalX (u_pm1 F32 (2 ^ 62)) = Xreal (- 1 / 2).
Proof.
  split; rewrite u_pm1_eval; f_equal; unfold u_pm1_R, hi32.
  - change (((2 ^ 63 + 2 ^ 62) / 2 ^ 12 - 2 ^ 51))%Z with (2 ^ 50)%Z.
    change (powerRZ 2 (-51)) with (/ (2 ^ 51)). change (2 ^ 50)%Z with 1125899906842624%Z.
    replace ((2:R) ^ 51) with 2251799813685248 by (symmetry; apply (pow_IZR 2 51)). field.
  - change ((2 ^ 62 / 2 ^ 32 / 2 ^ 9 - 2 ^ 22))%Z with (- 2 ^ 21)%Z.
    change (powerRZ 2 (-22)) with (/ (2 ^ 22)). change (- 2 ^ 21)%Z with (-2097152)%Z.
    replace ((2:R) ^ 22) with 4194304 by (symmetry; apply (pow_IZR 2 22)). field.
Qed.
