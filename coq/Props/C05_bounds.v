(* Props/C05_bounds.v — property C05 (sampling terminates with a small, bounded consumption of random
   words; no parameter value makes sampling loop forever), parts on the loops of the discrete samplers.
   Statements only; proofs in Proofs/LoopBoundsFloat.v (IEEE binary64, Flocq) and Proofs/LoopBounds.v
   (ideal models of Model/Discrete.v).
     evals r v      the exact semantics of the decision tree r returns v                  (Base/Run.v)
     fails r c      the exact semantics of r reaches the leaf `Fail c`           (Proofs/LoopBounds.v)
                    codes: 1 = words exhausted, 2 = loop fuel exhausted, 3 = panic in the code
     allout P Q r   every returned value satisfies P and every reachable failure code satisfies Q
     word w         0 <= w < 2^64                                                                        *)
From Coq Require Import Reals ZArith List Lra Lia Bool.
From Interval Require Import Xreal.
From Flocq Require Import Core.Core IEEE754.BinarySingleNaN.
From RD Require Import Base.Expr Base.Run Model.Sampler Model.Continuous Model.Discrete Model.Multi
  Proofs.LawsInvCdf Proofs.LoopBoundsFloat Proofs.LoopBounds Proofs.ConsumptionDiscrete.
From RD Require Proofs.MultiEvents.
Import ListNotations.

(* 1. Geometric::new on IEEE binary64: pi = pi*pi; while pi > 0.5 { k += 1; pi = pi*pi } *)
Section Float.
Open Scope R_scope.
(* binary64 product, round to nearest even (Hp53 : 0 < 53 and Hpe53 : 53 < 1024 are `eq_refl`) *)
Local Notation mul64 := (@Bmult 53 1024 Hp53 Hpe53 mode_NE).

(* squaring a binary64 value of (1/2, 1) loses at least one ulp (2^-53) and stays >= 1/4 *)
Theorem C05_fsq_decreases : forall x : binary_float 53 1024, is_finite x = true -> / 2 < B2R x < 1 ->
  is_finite (mul64 x x) = true /\
  / 4 <= B2R (mul64 x x) <= B2R x - bpow radix2 (-53) /\
  B2R (mul64 x x) < B2R x.
Proof. exact fsq_decreases. Qed.

(* the loop (geo_newB: fuel 64, comparison against the float 0.5, mul64) terminates with
   1 <= k <= 53 for every finite pi0 in [0, 1); the final pi is in [0, 1/2], and >= 1/4 if pi0 >= 1/2 *)
Theorem C05_geometric_new_terminates : forall pi0 : binary_float 53 1024,
  is_finite pi0 = true -> 0 <= B2R pi0 < 1 ->
  exists pi k, geo_newB pi0 = Some (pi, k) /\ (1 <= k <= 53)%Z /\ is_finite pi = true /\
               0 <= B2R pi <= / 2 /\ (/ 2 <= B2R pi0 -> / 4 <= B2R pi).
Proof. exact geometric_new_terminates. Qed.
Theorem C05_geo_newB_unfold : forall pi0 fuel pi k,
  geo_newB pi0 = geo_new_loopB 64 (mul64 pi0 pi0) 1 /\
  geo_new_loopB 0 pi k = None /\
  geo_new_loopB (S fuel) pi k =
    (if Bltb half64 pi then geo_new_loopB fuel (mul64 pi pi) (k + 1) else Some (pi, k)) /\
  B2R half64 = / 2.
Proof. exact (fun pi0 fuel pi k => conj eq_refl (conj eq_refl (conj eq_refl half64_val))). Qed.
(* pi0 <= 1/2: the loop body never runs, k = 1 *)
Theorem C05_geometric_new_small : forall pi0 : binary_float 53 1024,
  is_finite pi0 = true -> 0 <= B2R pi0 <= / 2 -> geo_newB pi0 = Some (mul64 pi0 pi0, 1%Z).
Proof. exact geometric_new_small. Qed.
(* exact arithmetic: x^(2^j) <= 1/2 for 0 <= x <= 1 - 2^-j *)
Theorem C05_exact_squarings_bound : forall x (j : nat), 0 <= x <= 1 - / 2 ^ j -> x ^ (2 ^ j) <= / 2.
Proof. exact exact_squarings_bound. Qed.

(* the worst case pi0 = 1 - 2^-53 needs exactly k = 53 *)
Example C05_ex_geometric_new_worst :
  option_map snd (geo_newB (@B754_finite 53 1024 false 9007199254740991 (-53) eq_refl)) = Some 53%Z.
Proof. vm_compute. reflexivity. Qed.
End Float.

Open Scope Z_scope.

(* 2. the loops of the models of Model/Discrete.v *)
Theorem C05_allout_meaning : forall A (P : A -> Prop) (Q : Z -> Prop) r,
  allout P Q r <-> (forall v, evals r v -> P v) /\ (forall c, fails r c -> Q c).
Proof. exact @allout_spec. Qed.
Theorem C05_evals_fails_excl : forall A (r : run A) v c, evals r v -> fails r c -> False.
Proof. exact @evals_fails_excl. Qed.

(* (a) StandardGeometric: result x >= 0, exactly x / 64 + 1 words consumed; the fuel (64 iterations) is
   exhausted only by 64 consecutive zero words *)
Theorem C05_std_geometric_words : forall ws x rest, Forall word ws -> evals (std_geometric ws) (x, rest) ->
  0 <= x < 64 * 64 /\ length ws = (length rest + Z.to_nat (x / 64) + 1)%nat.
Proof. exact std_geometric_words. Qed.
Theorem C05_std_geometric_fuel : forall ws, Forall word ws -> fails (std_geometric ws) 2 ->
  (64 <= length ws)%nat /\ Forall (fun w => w = 0) (firstn 64 ws).
Proof. exact std_geometric_fuel. Qed.
Theorem C05_std_geometric_loop_words : forall fuel result ws x rest, Forall word ws ->
  evals (std_geometric_loop fuel result ws) (x, rest) ->
  result <= x /\ (x - result) / 64 < Z.of_nat fuel /\
  length ws = (length rest + Z.to_nat ((x - result) / 64) + 1)%nat.
Proof. exact std_geometric_loop_words. Qed.
Example C05_ex_std_geometric : std_geometric [0; 1; 7] = Ret (127, [7]).
Proof. vm_compute. reflexivity. Qed.

(* (b) BINV: the inner loop with fuel >= 111 (the model gives 112) never fails, reads no word, and returns
   Some x with x <= 110 or None (restart); every pass of the outer loop consumes exactly one word *)
Theorem C05_binv_inner_no_fuel_exhaustion : forall fuel a s u r ws, (111 <= fuel)%nat ->
  forall c, ~ fails (binv_inner fuel a s u r 0 ws) c.
Proof. exact binv_inner_no_fuel_exhaustion. Qed.
Theorem C05_binv_inner_result : forall fuel a s u r ws o rest, (111 <= fuel)%nat ->
  evals (binv_inner fuel a s u r 0 ws) (o, rest) ->
  rest = ws /\ match o with Some y => 0 <= y <= 110 | None => True end.
Proof. exact binv_inner_result. Qed.
Theorem C05_binv_outer_words : forall fuel r a s ws x rest, evals (binv_outer fuel r a s ws) (x, rest) ->
  0 <= x <= 110 /\ exists j, (1 <= j <= fuel)%nat /\ length ws = (length rest + j)%nat.
Proof. exact binv_outer_words. Qed.
Theorem C05_binv_outer_fail : forall fuel r a s ws c, fails (binv_outer fuel r a s ws) c ->
  (c = 1 /\ (length ws < fuel)%nat) \/ (c = 2 /\ (fuel <= length ws)%nat).
Proof. exact binv_outer_fail. Qed.
Example C05_ex_binv : forall a s u r ws, ~ fails (binv_inner 112 a s u r 0 ws) 2.
Proof. intros a s u r ws. apply binv_inner_no_fuel_exhaustion. repeat constructor. Qed.

(* (c) Knuth's Poisson loop: result x >= 0 and exactly x + 1 words consumed *)
Theorem C05_knuth_words : forall t lambda ws x rest, evals (knuth t lambda ws) (x, rest) ->
  0 <= x < 1024 /\ length ws = (length rest + Z.to_nat x + 1)%nat.
Proof. exact knuth_words. Qed.
Theorem C05_knuth_loop_words : forall fuel t el p result ws x rest,
  evals (knuth_loop fuel t el p result ws) (x, rest) ->
  result - 1 <= x < result - 1 + Z.of_nat fuel /\ length ws = (length rest + Z.to_nat (x - (result - 1)))%nat.
Proof. exact knuth_loop_words. Qed.
Theorem C05_knuth_fail : forall t lambda ws c, fails (knuth t lambda ws) c ->
  (c = 1 /\ (length ws < 1025)%nat) \/ (c = 2 /\ (1025 <= length ws)%nat).
Proof. exact knuth_fail. Qed.
Example C05_ex_knuth : forall t lambda ws rest, evals (knuth t lambda ws) (3, rest) -> length ws = (length rest + 4)%nat.
Proof. intros t lambda ws rest E. destruct (knuth_words _ _ _ _ _ E) as [_ H]. lia. Qed.

(* (d) HIN: with the model's fuel the loop never fails, reads no word, makes at most min(n1,k) - x0
   iterations; together with its uniform draw exactly one word is consumed *)
Theorem C05_hin_loop_no_fuel_exhaustion : forall n1 n2 k u p x0 ws c, x0 <= Z.min n1 k ->
  ~ fails (hin_loop (Z.to_nat (Z.min n1 k - x0) + 2) n1 n2 k u p x0 ws) c.
Proof. exact hin_loop_no_fuel_exhaustion. Qed.
Theorem C05_hin_loop_result : forall n1 n2 k u p x0 ws x rest, x0 <= Z.min n1 k ->
  evals (hin_loop (Z.to_nat (Z.min n1 k - x0) + 2) n1 n2 k u p x0 ws) (x, rest) ->
  rest = ws /\ x0 <= x <= Z.min n1 k.
Proof. exact hin_loop_result. Qed.
Theorem C05_hin_one_word : forall n1 n2 k p x0 ws, x0 <= Z.min n1 k ->
  allout (fun q => length ws = S (length (snd q)) /\ x0 <= fst q <= Z.min n1 k) (fun c => c = 1 /\ ws = [])
         (sbind (draw_std F64) (fun u => hin_loop (Z.to_nat (Z.min n1 k - x0) + 2) n1 n2 k u p x0) ws).
Proof. exact hin_one_word. Qed.
Example C05_ex_hin : forall u p ws c, ~ fails (hin_loop 4 3 5 2 u p 0 ws) c.
Proof. intros u p ws c. apply (hin_loop_no_fuel_exhaustion 3 5 2 u p 0 ws c). discriminate. Qed.

(* (e) product loops: BTPE 5.1 multiplies / divides by exactly cnt factors a/j - s, j = i+1 .. i+cnt, and
   cnt = |y - m|; the H2PE 4.1 loops read no word, fail only with the code-3 panic, and not at all when
   the index range stays within min(n1,k) *)
Theorem C05_btpe_up_fold : forall cnt a s i f,
  btpe_up cnt a s i f = oget (fold_left (fun acc j => omul acc (btpe_g a s j)) (idx i cnt) f) /\
  length (idx i cnt) = cnt.
Proof. exact (fun cnt a s i f => conj (btpe_up_fold cnt a s i f) (idx_length i cnt)). Qed.
Theorem C05_btpe_down_fold : forall cnt a s i f,
  btpe_down cnt a s i f = fold_left (fun acc j => Bin Div acc (btpe_g a s j)) (idx i cnt) f.
Proof. exact btpe_down_fold. Qed.
Theorem C05_btpe_51_count : forall m y,
  (m < y -> Z.to_nat (y - m) = Z.abs_nat (y - m)) /\ (y < m -> Z.to_nat (m - y) = Z.abs_nat (y - m)).
Proof. exact btpe_51_count. Qed.
Theorem C05_h2pe_up_spec : forall cnt n1 n2 k i f ws,
  allout (fun q => snd q = ws) (fun c => c = 3) (h2pe_up cnt n1 n2 k i f ws).
Proof. exact h2pe_up_spec. Qed.
Theorem C05_h2pe_down_spec : forall cnt n1 n2 k i f ws,
  allout (fun q => snd q = ws) (fun c => c = 3) (h2pe_down cnt n1 n2 k i f ws).
Proof. exact h2pe_down_spec. Qed.
Theorem C05_h2pe_up_value : forall cnt n1 n2 k i f ws, i + Z.of_nat cnt <= Z.min n1 k ->
  h2pe_up cnt n1 n2 k i f ws = Ret (oget (fold_left (h2pe_step_up n1 n2 k) (idx i cnt) f), ws).
Proof. exact h2pe_up_value. Qed.
Theorem C05_h2pe_down_value : forall cnt n1 n2 k i f ws, i + Z.of_nat cnt <= Z.min n1 k ->
  h2pe_down cnt n1 n2 k i f ws = Ret (oget (fold_left (h2pe_step_down n1 n2 k) (idx i cnt) f), ws).
Proof. exact h2pe_down_value. Qed.
Example C05_ex_btpe_up : forall a s, btpe_up 2 a s 5 None = Bin Mul (btpe_g a s 6) (btpe_g a s 7).
Proof. reflexivity. Qed.

(* Geometric::new on the ideal (exact real) model: from pi0 = 1 - p, 2^-54 <= p <= 1, the loop returns
   1 <= k <= 54 without reading a word and cannot fail: fuel 64 suffices and `1 << k` cannot overflow *)
Theorem C05_geo_new_loop_model_result : forall p ws pi k rest, (/ 2 ^ 54 <= dyR p <= 1)%R ->
  evals (geo_new_loop 64 (Un Sqr (Bin Sub one (dyx p))) 1 ws) (pi, k, rest) -> 1 <= k <= 54 /\ rest = ws.
Proof. exact geo_new_loop_model_result. Qed.
Theorem C05_geo_new_loop_model_no_fail : forall p ws c, (/ 2 ^ 54 <= dyR p <= 1)%R ->
  ~ fails (geo_new_loop 64 (Un Sqr (Bin Sub one (dyx p))) 1 ws) c.
Proof. exact geo_new_loop_model_no_fail. Qed.
Theorem C05_rounds_to_one_false : forall p, rounds_to_one p = false -> (/ 2 ^ 54 < dyR p)%R.
Proof. exact rounds_to_one_false. Qed.

(* 3. no constant rejection: for all parameters some word list is accepted *)
Theorem C05_geo_m_accepts : forall f p k w2 ws, word w2 -> evals (geo_m (S f) p k (0 :: w2 :: ws)) (0, ws).
Proof. exact geo_m_accepts. Qed.
Theorem C05_geo_trivial_accepts : forall f p x n ws, evalX p = Xreal x -> (0 <= x)%R ->
  evals (geo_trivial (S f) p n (0 :: ws)) (n, ws).
Proof. exact geo_trivial_accepts. Qed.
Theorem C05_geo_d_accepts : forall f pi x n ws, evalX pi = Xreal x -> (x <= / 2)%R ->
  evals (geo_d (S f) pi n ((2 ^ 64 - 1) :: ws)) (n, ws).
Proof. exact geo_d_accepts. Qed.
Theorem C05_unit_disc_accepts : forall f t ws,
  evals (unit_disc_loop (S f) t (2 ^ 63 :: 2 ^ 63 :: ws)) ([u_pm1 t (2 ^ 63); u_pm1 t (2 ^ 63)], ws).
Proof. exact MultiEvents.unit_disc_accepts_origin. Qed.
Example C05_ex_geo_m : forall p, evals (geo_m 256 p 5 [0; 12345; 9]) (0, [9]).
Proof. intros p. apply (geo_m_accepts 255 p 5 12345 [9]). split; [discriminate|reflexivity]. Qed.

Print Assumptions C05_fsq_decreases.
Print Assumptions C05_geometric_new_terminates.
Print Assumptions C05_geo_newB_unfold.
Print Assumptions C05_geometric_new_small.
(* 4. BTPE and H2PE: exactly two words per proposal, for every word list and ALL parameters *)
Theorem C05_two_per_iter_def : forall fuel ws q,
  two_per_iter fuel ws q <-> exists j : nat, (1 <= j <= fuel)%nat /\ length ws = (length (snd q) + 2 * j)%nat.
Proof. intros. reflexivity. Qed.
Theorem C05_btpe_loop_words : forall n pe fuel m p1 x_m x_l x_r c p2 lambda_l lambda_r p3 p4 ws,
  allout (two_per_iter fuel ws) (fun _ => True) (btpe_loop n pe fuel m p1 x_m x_l x_r c p2 lambda_l lambda_r p3 p4 ws).
Proof. exact btpe_loop_words. Qed.
Theorem C05_h2pe_loop_words : forall n1 n2 k m a lambda_l lambda_r x_l x_r p1 p2 p3 fuel ws,
  allout (two_per_iter fuel ws) (fun _ => True) (h2pe_loop n1 n2 k m a lambda_l lambda_r x_l x_r p1 p2 p3 fuel ws).
Proof. exact h2pe_loop_words. Qed.

Print Assumptions C05_two_per_iter_def.
Print Assumptions C05_btpe_loop_words.
Print Assumptions C05_h2pe_loop_words.
Print Assumptions C05_exact_squarings_bound.
Print Assumptions C05_allout_meaning.
Print Assumptions C05_evals_fails_excl.
Print Assumptions C05_std_geometric_words.
Print Assumptions C05_std_geometric_fuel.
Print Assumptions C05_std_geometric_loop_words.
Print Assumptions C05_binv_inner_no_fuel_exhaustion.
Print Assumptions C05_binv_inner_result.
Print Assumptions C05_binv_outer_words.
Print Assumptions C05_binv_outer_fail.
Print Assumptions C05_knuth_words.
Print Assumptions C05_knuth_loop_words.
Print Assumptions C05_knuth_fail.
Print Assumptions C05_hin_loop_no_fuel_exhaustion.
Print Assumptions C05_hin_loop_result.
Print Assumptions C05_hin_one_word.
Print Assumptions C05_btpe_up_fold.
Print Assumptions C05_btpe_down_fold.
Print Assumptions C05_btpe_51_count.
Print Assumptions C05_h2pe_up_spec.
Print Assumptions C05_h2pe_down_spec.
Print Assumptions C05_h2pe_up_value.
Print Assumptions C05_h2pe_down_value.
Print Assumptions C05_geo_new_loop_model_result.
Print Assumptions C05_geo_new_loop_model_no_fail.
Print Assumptions C05_rounds_to_one_false.
Print Assumptions C05_geo_m_accepts.
Print Assumptions C05_geo_trivial_accepts.
Print Assumptions C05_geo_d_accepts.
Print Assumptions C05_unit_disc_accepts.
