(* Props/C11.v — Dirichlet: reversed cumulative sums, the chain of Beta parameters, the simplex
   property of stick breaking and of the Gamma normalisation (ideal reals and the models of
   Model/Multi.v), and the method switch.                                                       *)
From Coq Require Import Reals ZArith List.
From Interval Require Import Xreal.
From RD Require Import Base.Expr Base.Run Model.Sampler Model.Continuous Model.Multi Proofs.MultiProofs Proofs.MultiDirichlet Proofs.MultiRange.
Import ListNotations.
Local Open Scope R_scope.

Theorem C11_rev_csum_spec : forall (alpha : list R) (i : nat), (2 <= length alpha)%nat -> (i < length alpha - 1)%nat ->
  nth i (rev_csum_R alpha) 0 = sumf (skipn (S i) alpha).
Proof. exact rev_csum_spec. Qed.
Print Assumptions C11_rev_csum_spec.

Theorem C11_rev_csum_length : forall alpha : list R, length (rev_csum_R alpha) = (length alpha - 1)%nat.
Proof. exact rev_csum_length. Qed.
Print Assumptions C11_rev_csum_length.

Theorem C11_rev_csum_length_e : forall alpha : list expr, length (rev_csum alpha) = (length alpha - 1)%nat.
Proof. exact rev_csum_length_e. Qed.
Print Assumptions C11_rev_csum_length_e.

(* the float-level list of the model denotes the real-level list *)
Theorem C11_rev_csum_vals : forall alpha rs,
  Forall2 (fun e r => evalX e = Xreal r) alpha rs ->
  Forall2 (fun e r => evalX e = Xreal r) (rev_csum alpha) (rev_csum_R rs).
Proof. exact rev_csum_vals. Qed.
Print Assumptions C11_rev_csum_vals.

Theorem C11_beta_chain_params : forall t (alpha : list (Z * Z)),
  let al := map dyx alpha in
  dirichlet_beta t alpha = dir_sticks t (beta_params al) one /\
  length (beta_params al) = (length alpha - 1)%nat /\
  (forall i, (i < length alpha - 1)%nat ->
     nth i (beta_params al) (one, one) = (dyx (nth i alpha (1, 0)%Z), nth i (rev_csum al) one)) /\
  (forall p r acc, dir_sticks t (p :: r) acc =
     (bs <- beta_of t p ;; l <- dir_sticks t r (Bin Mul acc (Bin Sub one bs)) ;; sret (Bin Mul acc bs :: l))%sampler) /\
  (forall acc, dir_sticks t [] acc = sret [acc]).
Proof. exact beta_chain_params. Qed.
Print Assumptions C11_beta_chain_params.

Theorem C11_stick_simplex : forall bs : list R, Forall (fun b => 0 <= b <= 1) bs ->
  length (sticks bs 1) = S (length bs) /\ Forall (fun s => 0 <= s <= 1) (sticks bs 1) /\ sumf (sticks bs 1) = 1.
Proof. exact stick_simplex. Qed.
Print Assumptions C11_stick_simplex.

(* the sum is 1 whatever the b_i are *)
Theorem C11_sticks_sum : forall (bs : list R) (acc : R), sumf (sticks bs acc) = acc.
Proof. exact sticks_sum. Qed.
Print Assumptions C11_sticks_sum.

Theorem C11_gamma_simplex : forall gs : list R, Forall (fun g => 0 < g) gs -> gs <> [] ->
  length (normalise gs) = length gs /\ Forall (fun x => 0 < x <= 1) (normalise gs) /\ sumf (normalise gs) = 1.
Proof. exact gamma_simplex. Qed.
Print Assumptions C11_gamma_simplex.

Theorem C11_dirichlet_beta_simplex : forall t alpha ws out rest, evals (dirichlet_beta t alpha ws) (out, rest) ->
  length out = S (length alpha - 1) /\
  forall rs, Forall2 (fun e r => evalX e = Xreal r) out rs -> sumf rs = 1.
Proof. exact dirichlet_beta_simplex. Qed.
Print Assumptions C11_dirichlet_beta_simplex.

Theorem C11_dirichlet_gamma_simplex : forall t alpha ws out rest, alpha <> [] ->
  evals (dirichlet_gamma t alpha ws) (out, rest) ->
  length out = length alpha /\
  forall os, Forall2 (fun e r => evalX e = Xreal r) out os -> sumf os = 1.
Proof. exact dirichlet_gamma_simplex. Qed.
Print Assumptions C11_dirichlet_gamma_simplex.

Theorem C11_dirichlet_simplex : forall t alpha ws out rest, (2 <= length alpha)%nat ->
  evals (dirichlet t alpha ws) (out, rest) ->
  length out = length alpha /\
  forall os, Forall2 (fun e r => evalX e = Xreal r) out os -> sumf os = 1.
Proof. exact dirichlet_simplex. Qed.
Print Assumptions C11_dirichlet_simplex.

(* Beta route: every component is in [0,1] as well — the result is a point of the simplex *)
Theorem C11_dirichlet_beta_on_simplex : forall t alpha ws out rest, Forall (fun a => 0 < dyv a) alpha ->
  evals (dirichlet_beta t alpha ws) (out, rest) ->
  forall rs, Forall2 (fun e r => evalX e = Xreal r) out rs -> Forall (fun r => 0 <= r <= 1) rs /\ sumf rs = 1.
Proof. exact dirichlet_beta_on_simplex. Qed.
Print Assumptions C11_dirichlet_beta_on_simplex.

Theorem C11_method_switch : forall t alpha,
  (dir_use_beta t alpha = true <-> Forall (fun a => dyv a <= dyv (dir_threshold t)) alpha) /\
  (dir_use_beta t alpha = true -> dirichlet t alpha = dirichlet_beta t alpha) /\
  (dir_use_beta t alpha = false -> dirichlet t alpha = dirichlet_gamma t alpha).
Proof. exact method_switch. Qed.
Print Assumptions C11_method_switch.

Theorem C11_threshold_values :
  dyv (dir_threshold F64) = 3602879701896397 / 36028797018963968 /\
  dyv (dir_threshold F32) = 13421773 / 134217728 /\
  1 / 10 < dyv (dir_threshold F64) < dyv (dir_threshold F32).
Proof. exact dir_threshold_values. Qed.
Print Assumptions C11_threshold_values.

Example C11_rev_csum_instance : rev_csum_R [1; 2; 3; 4] = [4 + 3 + 2; 4 + 3; 4] /\ rev_csum_R [1; 2; 3; 4] = [9; 7; 4].
Proof.
  split; [reflexivity|]. cbv [rev_csum_R tl suffix_sums_R].
  repeat (f_equal; try (rewrite <- ?plus_IZR; apply f_equal; reflexivity)).
Qed.

Example C11_rev_csum_expr_instance :
  rev_csum [num 1; num 2; num 3; num 4] = [Bin Add (Bin Add (num 4) (num 3)) (num 2); Bin Add (num 4) (num 3); num 4].
Proof. reflexivity. Qed.

(* b = [1/2; 1/2]: sticks 1/2, 1/4, 1/4 *)
Example C11_sticks_instance : sticks [1 / 2; 1 / 2] 1 = [1 * (1 / 2); 1 * (1 - 1 / 2) * (1 / 2); 1 * (1 - 1 / 2) * (1 - 1 / 2)]
  /\ sumf (sticks [1 / 2; 1 / 2] 1) = 1.
Proof. split; [reflexivity|apply C11_sticks_sum]. Qed.

(* alpha = [0.05; 0.1_f64] as f64 bit patterns takes the Beta route, alpha = [0.05; 0.5] the Gamma route *)
Example C11_switch_instance :
  dir_use_beta F64 [(3602879701896397, -56)%Z; (3602879701896397, -55)%Z] = true /\
  dir_use_beta F64 [(3602879701896397, -56)%Z; (1, -1)%Z] = false /\
  dir_use_beta F32 [(13421773, -27)%Z] = true /\ dir_use_beta F32 [(13421774, -27)%Z] = false.
Proof. repeat split; vm_compute; reflexivity. Qed.
