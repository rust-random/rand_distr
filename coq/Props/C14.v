(* Props/C14.v — sampling is a pure function of the distribution value and the RNG
   stream: no hidden state, sampling never mutates the distribution, equal values
   (clones, rebuilds from equal parameters) give equal sequences, interleaving with
   other objects/streams is irrelevant, sample_iter = repeated sample, and the
   stream position is the sum of the per-sample consumptions.
   Everything is quantified over the distribution type D, output type O, parameter
   type P, ANY sampler function samp and ANY constructor build. *)
From Coq Require Import ZArith List Bool String.
From RD Require Import Model.Pure Proofs.PureProofs.
Import ListNotations.
Open Scope Z_scope.

Section Statements.
  Variables D O P : Type.
  Variable samp : D -> list Z -> option (O * list Z).
  Variable build : P -> option D.
  Local Notation stepW := (step samp build).
  Local Notation runW := (run samp build).

  Theorem C14_sample_deterministic : forall (w1 w2 : world D) k1 k2 s1 s2,
    objs w1 k1 = objs w2 k2 -> streams w1 s1 = streams w2 s2 ->
    outputs (snd (stepW w1 (OpSample k1 s1))) = outputs (snd (stepW w2 (OpSample k2 s2))) /\
    streams (fst (stepW w1 (OpSample k1 s1))) s1 = streams (fst (stepW w2 (OpSample k2 s2))) s2.
  Proof. exact (sample_deterministic D O P samp build). Qed.

  Theorem C14_sample_leaves_dist : forall (w : world D) k s,
    objs (fst (stepW w (OpSample k s))) = objs w.
  Proof. exact (sample_leaves_dist D O P samp build). Qed.

  Theorem C14_sampling_history_leaves_dist : forall (ops : list (op P)) (w : world D),
    forallb is_sampling ops = true -> objs (fst (runW w ops)) = objs w.
  Proof. exact (sampling_history_leaves_dist D O P samp build). Qed.

  Theorem C14_same_dist_same_sequence : forall n (w1 w2 : world D) k1 k2 s1 s2,
    objs w1 k1 = objs w2 k2 -> streams w1 s1 = streams w2 s2 ->
    outputs (snd (runW w1 (repeat (OpSample k1 s1) n))) =
    outputs (snd (runW w2 (repeat (OpSample k2 s2) n))) /\
    streams (fst (runW w1 (repeat (OpSample k1 s1) n))) s1 =
    streams (fst (runW w2 (repeat (OpSample k2 s2) n))) s2.
  Proof. exact (same_dist_same_sequence D O P samp build). Qed.

  Theorem C14_clone_same_sequence : forall (w : world D) src dst s1 s2 n,
    streams w s1 = streams w s2 ->
    let w' := fst (stepW w (OpClone src dst)) in
    outputs (snd (runW w' (repeat (OpSample src s1) n))) =
    outputs (snd (runW w' (repeat (OpSample dst s2) n))) /\
    streams (fst (runW w' (repeat (OpSample src s1) n))) s1 =
    streams (fst (runW w' (repeat (OpSample dst s2) n))) s2.
  Proof. exact (clone_same_sequence D O P samp build). Qed.

  Theorem C14_clone_same_sequence_interleaved :
    forall (w : world D) src dst s1 s2 (mid : list (op P)) n,
    s1 <> s2 ->
    streams w s1 = streams w s2 ->
    forallb is_sampling mid = true ->
    Forall (fun o => match o with
                     | OpSample _ s' => s' <> s2
                     | OpIter _ s' _ => s' <> s2
                     | _ => True end) mid ->
    let w' := fst (stepW w (OpClone src dst)) in
    let w'' := fst (runW w' mid) in
    outputs (snd (runW w' (repeat (OpSample src s1) n))) =
    outputs (snd (runW w'' (repeat (OpSample dst s2) n))).
  Proof. exact (clone_same_sequence_interleaved D O P samp build). Qed.

  Theorem C14_rebuild_same_sequence : forall p d1 d2 ws n,
    build p = Some d1 -> build p = Some d2 -> sample_n samp d1 ws n = sample_n samp d2 ws n.
  Proof. exact (rebuild_same_sequence D O P samp build). Qed.

  Theorem C14_rebuild_same_sequence_world : forall (w1 w2 : world D) k1 k2 p d s1 s2 n,
    build p = Some d ->
    streams w1 s1 = streams w2 s2 ->
    let w1' := fst (stepW w1 (OpRebuild k1 p)) in
    let w2' := fst (stepW w2 (OpRebuild k2 p)) in
    outputs (snd (runW w1' (repeat (OpSample k1 s1) n))) =
    outputs (snd (runW w2' (repeat (OpSample k2 s2) n))) /\
    streams (fst (runW w1' (repeat (OpSample k1 s1) n))) s1 =
    streams (fst (runW w2' (repeat (OpSample k2 s2) n))) s2.
  Proof. exact (rebuild_same_sequence_world D O P samp build). Qed.

  Theorem C14_interleaving_independent : forall (ops : list (op P)) (w : world D) k s,
    Forall (isolated k s) ops ->
    filter (on_ks k s) (snd (runW w ops)) = snd (runW w (filter (relevant k s) ops)) /\
    objs (fst (runW w ops)) k = objs (fst (runW w (filter (relevant k s) ops))) k /\
    streams (fst (runW w ops)) s = streams (fst (runW w (filter (relevant k s) ops))) s.
  Proof. exact (interleaving_independent D O P samp build). Qed.

  Theorem C14_interleaving_independent_worlds : forall (ops : list (op P)) (w w' : world D) k s,
    objs w k = objs w' k -> streams w s = streams w' s ->
    Forall (isolated k s) ops ->
    filter (on_ks k s) (snd (runW w ops)) = filter (on_ks k s) (snd (runW w' ops)).
  Proof. exact (interleaving_independent_worlds D O P samp build). Qed.

  Theorem C14_iter_eq_repeat : forall n (w : world D) k s,
    snd (stepW w (OpIter k s n)) = snd (runW w (repeat (OpSample k s) n)) /\
    world_eq (fst (stepW w (OpIter k s n))) (fst (runW w (repeat (OpSample k s) n))).
  Proof. exact (iter_eq_repeat D O P samp build). Qed.

  Theorem C14_stream_position : forall (ops : list (op P)) (w : world D) s,
    Z.of_nat (List.length (streams (fst (runW w ops)) s)) =
    Z.of_nat (List.length (streams w s)) - consumed_on s (snd (runW w ops)).
  Proof. exact (stream_position D O P samp build). Qed.

  Theorem C14_stream_position_prefix : suffix_ok samp -> forall (ops : list (op P)) (w : world D) s,
    exists pre,
      streams w s = pre ++ streams (fst (runW w ops)) s /\
      Z.of_nat (List.length pre) = consumed_on s (snd (runW w ops)).
  Proof. exact (stream_position_prefix D O P samp build). Qed.
End Statements.

Print Assumptions C14_sample_deterministic.
Print Assumptions C14_sample_leaves_dist.
Print Assumptions C14_sampling_history_leaves_dist.
Print Assumptions C14_same_dist_same_sequence.
Print Assumptions C14_clone_same_sequence.
Print Assumptions C14_clone_same_sequence_interleaved.
Print Assumptions C14_rebuild_same_sequence.
Print Assumptions C14_rebuild_same_sequence_world.
Print Assumptions C14_interleaving_independent.
Print Assumptions C14_interleaving_independent_worlds.
Print Assumptions C14_iter_eq_repeat.
Print Assumptions C14_stream_position.
Print Assumptions C14_stream_position_prefix.

(* regenerated signature facts: the checker is true exactly when the crate forbids
   unsafe, no sampling method takes &mut self, no interior-mutability / global-state
   token occurs, and no static is mutable *)
Theorem C14_pure_sigs_true : forall forbid_unsafe recv_ok bad_tokens statics,
  pure_sigs forbid_unsafe recv_ok bad_tokens statics = true <->
  forbid_unsafe = true /\
  (forall b, In b recv_ok -> b = true) /\
  bad_tokens = [] /\
  (forall f n m, In (f, n, m) statics -> m = false).
Proof. exact pure_sigs_true. Qed.
Print Assumptions C14_pure_sigs_true.

(* Example world: two objects sharing ONE stream, plus a private stream *)
Definition toy_samp (d : Z) (ws : list Z) : option (Z * list Z) :=
  match ws with w :: r => Some (w + d, r) | [] => None end.
Definition toy_build (p : Z) : option Z := if p <? 0 then None else Some (10 * p).

Definition toy_world : world Z :=
  mkWorld (fun i => match i with 0%nat => 100 | _ => 200 end)
          (fun i => match i with 0%nat => [1; 2; 3; 4; 5; 6; 7; 8] | _ => [1; 2; 3] end).

Definition toy_ops : list (op Z) :=
  [OpSample 0 0; OpSample 1 0; OpClone 0 1; OpSample 1 0; OpIter 0 0 2;
   OpRebuild 1 5; OpSample 1 0; OpRebuild 1 (-1); OpIter 1 0 5].

Example toy_outputs :
  map (fun e => (ev_obj e, ev_out e, ev_used e)) (snd (run toy_samp toy_build toy_world toy_ops)) =
  [(0%nat, 101, 1); (1%nat, 202, 1); (1%nat, 103, 1); (0%nat, 104, 1); (0%nat, 105, 1);
   (1%nat, 56, 1); (1%nat, 57, 1); (1%nat, 58, 1)].
Proof. vm_compute. reflexivity. Qed.

Example toy_final :
  let w := fst (run toy_samp toy_build toy_world toy_ops) in
  (objs w 0%nat, objs w 1%nat, streams w 0%nat, streams w 1%nat) = (100, 50, [], [1; 2; 3]).
Proof. vm_compute. reflexivity. Qed.

Example toy_position :
  consumed_on 0 (snd (run toy_samp toy_build toy_world toy_ops)) = 8.
Proof. vm_compute. reflexivity. Qed.

(* object 1 drawing from its private stream 1, interleaved with traffic of object 0
   on the shared stream 0: same outputs as the projected history *)
Definition toy_ops2 : list (op Z) :=
  [OpSample 0 0; OpSample 1 1; OpIter 0 0 3; OpRebuild 0 7; OpSample 1 1; OpSample 0 0; OpSample 1 1].

Example toy_isolated : forallb (isolatedb 1 1) toy_ops2 = true.
Proof. vm_compute. reflexivity. Qed.

Example toy_projection :
  filter (relevant 1 1) toy_ops2 = [OpSample 1 1; OpSample 1 1; OpSample 1 1] /\
  outputs (filter (on_ks 1 1) (snd (run toy_samp toy_build toy_world toy_ops2))) = [201; 202; 203] /\
  outputs (snd (run toy_samp toy_build toy_world (filter (relevant 1 1) toy_ops2))) = [201; 202; 203].
Proof. vm_compute. auto. Qed.

(* the toy sampler reads from the front of its stream *)
Example toy_suffix_ok : suffix_ok toy_samp.
Proof.
  intros d [|w r] o r' H; simpl in H; [discriminate|].
  inversion H; subst. exists [w]. reflexivity.
Qed.

Example toy_pure_sigs :
  pure_sigs true [true; true] [] [("lib.rs", "TABLE", false)]%string = true /\
  pure_sigs true [true; false] [] [] = false /\
  pure_sigs true [] [("x.rs", "RefCell")]%string [] = false.
Proof. vm_compute. auto. Qed.
