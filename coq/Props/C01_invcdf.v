(* Props/C01_invcdf.v — the single-draw inverse-CDF sampler models (cauchy, pareto, weibull, gumbel,
   frechet, triangular) read one word, evaluate to the quantile transform of the uniform value that
   word denotes, and that transform inverts the documented CDF.  Statements only; the proofs and the
   vocabulary (dyR, word, uR_std, uR_oc, <D>_expr, Q_<D>, F_<D>) live in Proofs/LawsInvCdf.v and
   Proofs/LawsTriangular.v.                                                                        *)
From Coq Require Import Reals ZArith List Lra Lia.
From Interval Require Import Xreal.
From RD Require Import Base.Expr Base.Run Model.Sampler Model.Continuous.
From RD Require Import Proofs.LawsInvCdf Proofs.LawsTriangular.
Import ListNotations.
Open Scope R_scope.

Theorem C01_uniform_std_eval : forall t w, evalX (u_std t w) = Xreal (uR_std t w).
Proof. exact u_std_eval. Qed.
Print Assumptions C01_uniform_std_eval.

Theorem C01_uniform_oc_eval : forall t w, evalX (u_oc t w) = Xreal (uR_oc t w).
Proof. exact u_oc_eval. Qed.
Print Assumptions C01_uniform_oc_eval.

Theorem C01_uniform_std_range : forall t w, word w -> 0 <= uR_std t w < 1.
Proof. exact uR_std_range. Qed.
Print Assumptions C01_uniform_std_range.

Theorem C01_uniform_oc_range : forall t w, word w -> 0 < uR_oc t w <= 1.
Proof. exact uR_oc_range. Qed.
Print Assumptions C01_uniform_oc_range.

Theorem C01_uniform_oc_one : forall t w, word w ->
  (uR_oc t w = 1 <-> (match t with F64 => 2 ^ 64 - 2 ^ 11 | F32 => 2 ^ 64 - 2 ^ 40 end <= w)%Z).
Proof. exact uR_oc_one. Qed.
Print Assumptions C01_uniform_oc_one.

Theorem C01_cauchy_run : forall t median scale w ws,
  cauchy t median scale (w :: ws) = Ret (cauchy_expr t median scale w, ws).
Proof. exact cauchy_run. Qed.
Print Assumptions C01_cauchy_run.

Theorem C01_pareto_run : forall t scale shape w ws,
  pareto t scale shape (w :: ws) = Ret (pareto_expr t scale shape w, ws).
Proof. exact pareto_run. Qed.
Print Assumptions C01_pareto_run.

Theorem C01_weibull_run : forall t scale shape w ws,
  weibull t scale shape (w :: ws) = Ret (weibull_expr t scale shape w, ws).
Proof. exact weibull_run. Qed.
Print Assumptions C01_weibull_run.

Theorem C01_gumbel_run : forall t loc scale w ws,
  gumbel t loc scale (w :: ws) = Ret (gumbel_expr t loc scale w, ws).
Proof. exact gumbel_run. Qed.
Print Assumptions C01_gumbel_run.

Theorem C01_frechet_run : forall t loc scale shape w ws,
  frechet t loc scale shape (w :: ws) = Ret (frechet_expr t loc scale shape w, ws).
Proof. exact frechet_run. Qed.
Print Assumptions C01_frechet_run.

Theorem C01_triangular_run : forall t mn mx mode w ws,
  exists k, triangular t mn mx mode (w :: ws) = Ask CLt (tri_frange t mn mx w) (tri_dmm mn mode) k
         /\ k true = Ret (tri_lo_expr t mn mx mode w, ws)
         /\ k false = Ret (tri_hi_expr t mn mx mode w, ws).
Proof. exact triangular_run. Qed.
Print Assumptions C01_triangular_run.

Theorem C01_invcdf_run_nil : forall t a b c,
  cauchy t a b [] = Fail 1 /\ pareto t a b [] = Fail 1 /\ weibull t a b [] = Fail 1 /\
  gumbel t a b [] = Fail 1 /\ frechet t a b c [] = Fail 1 /\ triangular t a b c [] = Fail 1.
Proof. exact invcdf_run_nil. Qed.
Print Assumptions C01_invcdf_run_nil.

Theorem C01_weibull_value : forall t scale shape w,
  0 < dyR scale -> 0 < dyR shape -> word w -> uR_oc t w < 1 ->
  evalX (weibull_expr t scale shape w) = Xreal (Q_weibull (dyR scale) (dyR shape) (uR_oc t w)).
Proof. exact weibull_value. Qed.
Print Assumptions C01_weibull_value.

Theorem C01_weibull_undefined : forall t scale shape w,
  uR_oc t w = 1 -> evalX (weibull_expr t scale shape w) = Xnan.
Proof. exact weibull_undefined. Qed.
Print Assumptions C01_weibull_undefined.

Theorem C01_pareto_value : forall t scale shape w,
  0 < dyR scale -> 0 < dyR shape -> word w ->
  evalX (pareto_expr t scale shape w) = Xreal (Q_pareto (dyR scale) (dyR shape) (uR_oc t w)).
Proof. exact pareto_value. Qed.
Print Assumptions C01_pareto_value.

Theorem C01_gumbel_value : forall t loc scale w,
  0 < dyR scale -> word w -> uR_oc t w < 1 ->
  evalX (gumbel_expr t loc scale w) = Xreal (Q_gumbel (dyR loc) (dyR scale) (uR_oc t w)).
Proof. exact gumbel_value. Qed.
Print Assumptions C01_gumbel_value.

Theorem C01_gumbel_undefined : forall t loc scale w,
  uR_oc t w = 1 -> evalX (gumbel_expr t loc scale w) = Xnan.
Proof. exact gumbel_undefined. Qed.
Print Assumptions C01_gumbel_undefined.

Theorem C01_frechet_value : forall t loc scale shape w,
  0 < dyR scale -> 0 < dyR shape -> word w -> uR_oc t w < 1 ->
  evalX (frechet_expr t loc scale shape w) =
  Xreal (Q_frechet (dyR loc) (dyR scale) (dyR shape) (uR_oc t w)).
Proof. exact frechet_value. Qed.
Print Assumptions C01_frechet_value.

Theorem C01_frechet_undefined : forall t loc scale shape w,
  uR_oc t w = 1 -> evalX (frechet_expr t loc scale shape w) = Xnan.
Proof. exact frechet_undefined. Qed.
Print Assumptions C01_frechet_undefined.

Theorem C01_cauchy_value : forall t median scale w,
  0 < dyR scale -> word w -> uR_std t w <> 1 / 2 ->
  evalX (cauchy_expr t median scale w) = Xreal (Q_cauchy (dyR median) (dyR scale) (uR_std t w)).
Proof. exact cauchy_value. Qed.
Print Assumptions C01_cauchy_value.

Theorem C01_cauchy_undefined : forall t median scale w,
  uR_std t w = 1 / 2 -> evalX (cauchy_expr t median scale w) = Xnan.
Proof. exact cauchy_undefined. Qed.
Print Assumptions C01_cauchy_undefined.

Theorem C01_triangular_radicands : forall a b c u,
  a <= b -> a <= c <= b -> 0 <= u < 1 ->
  0 <= u * (b - a) * (c - a) /\ 0 <= ((b - a) - u * (b - a)) * (b - c).
Proof. exact tri_radicands. Qed.
Print Assumptions C01_triangular_radicands.

Theorem C01_triangular_value : forall t mn mx mode w ws,
  (exists e, evals (triangular t mn mx mode (w :: ws)) (e, ws)) /\
  (forall v, evals (triangular t mn mx mode (w :: ws)) v ->
     snd v = ws /\ evalX (fst v) = Xreal (Q_tri (dyR mn) (dyR mx) (dyR mode) (uR_std t w))).
Proof. exact triangular_value. Qed.
Print Assumptions C01_triangular_value.

Theorem C01_weibull_event : forall lambda k u x,
  0 < lambda -> 0 < k -> 0 < u < 1 ->
  (Q_weibull lambda k u <= x <-> 1 - F_weibull lambda k x <= u).
Proof. exact weibull_event. Qed.
Print Assumptions C01_weibull_event.

Theorem C01_pareto_event : forall xm alpha u x,
  0 < xm -> 0 < alpha -> 0 < u <= 1 -> (xm <= x \/ u < 1) ->
  (Q_pareto xm alpha u <= x <-> 1 - F_pareto xm alpha x <= u).
Proof. exact pareto_event. Qed.
Print Assumptions C01_pareto_event.

Theorem C01_gumbel_event : forall mu beta u x,
  0 < beta -> 0 < u < 1 ->
  (Q_gumbel mu beta u <= x <-> u <= F_gumbel mu beta x).
Proof. exact gumbel_event. Qed.
Print Assumptions C01_gumbel_event.

Theorem C01_frechet_event : forall mu sigma alpha u x,
  0 < sigma -> 0 < alpha -> 0 < u < 1 ->
  (Q_frechet mu sigma alpha u <= x <-> u <= F_frechet mu sigma alpha x).
Proof. exact frechet_event. Qed.
Print Assumptions C01_frechet_event.

Theorem C01_cauchy_atan : forall x0 gamma u,
  0 < gamma ->
  (0 <= u < 1 / 2 -> atan ((Q_cauchy x0 gamma u - x0) / gamma) = PI * u) /\
  (1 / 2 < u < 1 -> atan ((Q_cauchy x0 gamma u - x0) / gamma) = PI * u - PI).
Proof. exact cauchy_atan. Qed.
Print Assumptions C01_cauchy_atan.

Theorem C01_cauchy_event : forall x0 gamma u x,
  0 < gamma ->
  (0 <= u < 1 / 2 -> (Q_cauchy x0 gamma u <= x <-> u + 1 / 2 <= F_cauchy x0 gamma x)) /\
  (1 / 2 < u < 1 -> (Q_cauchy x0 gamma u <= x <-> u - 1 / 2 <= F_cauchy x0 gamma x)).
Proof. exact cauchy_event. Qed.
Print Assumptions C01_cauchy_event.

Theorem C01_triangular_event : forall a b c u x,
  a < b -> a <= c <= b -> 0 <= u < 1 -> (0 < u \/ a <= x) ->
  (Q_tri a b c u <= x <-> u <= F_tri a b c x).
Proof. exact triangular_event. Qed.
Print Assumptions C01_triangular_event.

Theorem C01_weibull_nonvacuous :
  evalX (weibull_expr F64 (3, 0)%Z (2, 0)%Z (2 ^ 63)) = Xreal (Q_weibull 3 2 ((2 ^ 52 + 1) / 2 ^ 53)) /\
  (forall u x, 0 < u < 1 -> (Q_weibull 3 2 u <= x <-> 1 - F_weibull 3 2 x <= u)).
Proof. exact weibull_nonvacuous. Qed.
Print Assumptions C01_weibull_nonvacuous.

Theorem C01_pareto_nonvacuous :
  evalX (pareto_expr F64 (3, 0)%Z (2, 0)%Z (2 ^ 63)) = Xreal (Q_pareto 3 2 ((2 ^ 52 + 1) / 2 ^ 53)) /\
  (forall u x, 0 < u <= 1 -> 3 <= x -> (Q_pareto 3 2 u <= x <-> 1 - F_pareto 3 2 x <= u)).
Proof. exact pareto_nonvacuous. Qed.
Print Assumptions C01_pareto_nonvacuous.

Theorem C01_gumbel_nonvacuous :
  evalX (gumbel_expr F64 (-5, 0)%Z (3, 0)%Z (2 ^ 63)) = Xreal (Q_gumbel (-5) 3 ((2 ^ 52 + 1) / 2 ^ 53)) /\
  (forall u x, 0 < u < 1 -> (Q_gumbel (-5) 3 u <= x <-> u <= F_gumbel (-5) 3 x)).
Proof. exact gumbel_nonvacuous. Qed.
Print Assumptions C01_gumbel_nonvacuous.

Theorem C01_frechet_nonvacuous :
  evalX (frechet_expr F64 (-5, 0)%Z (3, 0)%Z (2, 0)%Z (2 ^ 63)) =
    Xreal (Q_frechet (-5) 3 2 ((2 ^ 52 + 1) / 2 ^ 53)) /\
  (forall u x, 0 < u < 1 -> (Q_frechet (-5) 3 2 u <= x <-> u <= F_frechet (-5) 3 2 x)).
Proof. exact frechet_nonvacuous. Qed.
Print Assumptions C01_frechet_nonvacuous.

Theorem C01_cauchy_nonvacuous :
  evalX (cauchy_expr F64 (-5, 0)%Z (3, 0)%Z (2 ^ 62)) = Xreal (Q_cauchy (-5) 3 (1 / 4)) /\
  evalX (cauchy_expr F64 (-5, 0)%Z (3, 0)%Z (2 ^ 63)) = Xnan /\
  (forall x, Q_cauchy (-5) 3 (1 / 4) <= x <-> 3 / 4 <= F_cauchy (-5) 3 x) /\
  (forall x, Q_cauchy (-5) 3 (3 / 4) <= x <-> 1 / 4 <= F_cauchy (-5) 3 x).
Proof. exact cauchy_nonvacuous. Qed.
Print Assumptions C01_cauchy_nonvacuous.

Theorem C01_triangular_nonvacuous :
  (forall v, evals (triangular F64 (0, 0)%Z (4, 0)%Z (1, 0)%Z [2 ^ 63]%Z) v ->
     evalX (fst v) = Xreal (4 - sqrt 6)) /\
  (forall u x, 0 <= u < 1 -> 0 <= x -> (Q_tri 0 4 1 u <= x <-> u <= F_tri 0 4 1 x)).
Proof. exact triangular_nonvacuous. Qed.
Print Assumptions C01_triangular_nonvacuous.
