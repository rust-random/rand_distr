(* Props/Base_run.v — soundness of the interval exploration of sampler decision trees
   (Base/Run.v) with respect to the exact real-number semantics.                     *)
From Coq Require Import Reals ZArith List.
From Interval Require Import Xreal Interval.
From Flocq Require Import Core.
From RD Require Import Base.Expr Base.Run Proofs.RunSound.
Import ListNotations.

(* the path taken by the exact semantics is explored, unless the exploration was cut *)
Theorem Base_interpI_sound : forall A prec p eta (r : run A) v forks, evals r v ->
  In (OVal v) (interpI prec p eta r forks) \/ In OAmb (interpI prec p eta r forks).
Proof. exact interpI_sound. Qed.
Print Assumptions Base_interpI_sound.

Theorem Base_interpI_no_amb_complete : forall A prec p eta (r : run A) v forks, evals r v ->
  ~ In OAmb (interpI prec p eta r forks) -> In (OVal v) (interpI prec p eta r forks).
Proof. exact interpI_no_amb_complete. Qed.
Print Assumptions Base_interpI_no_amb_complete.

(* a property checked on every explored outcome (with no ambiguity) holds of the exact value *)
Theorem Base_interpI_forall : forall A prec p eta (P : A -> Prop) (r : run A) v forks, evals r v ->
  Forall (fun o => match o with OVal a => P a | OFail _ => True | OAmb => False end)
         (interpI prec p eta r forks) -> P v.
Proof. exact interpI_forall. Qed.
Print Assumptions Base_interpI_forall.

Theorem Base_interpI_singleton : forall A prec p eta (r : run A) v w forks, evals r v ->
  interpI prec p eta r forks = [OVal w] -> v = w.
Proof. exact interpI_singleton. Qed.
Print Assumptions Base_interpI_singleton.

(* interpS, the exploration that also threads a signature of the decisions taken (which model paths the
   correspondence exercises), has exactly the outcomes of interpI *)
Theorem Base_interpS_fst : forall prec p eta A (r : run A) forks h,
  map fst (interpS prec p eta r forks h) = interpI prec p eta r forks.
Proof. exact interpS_fst. Qed.
Print Assumptions Base_interpS_fst.

Theorem Base_evals_deterministic : forall A (r : run A) v1 v2, evals r v1 -> evals r v2 -> v1 = v2.
Proof. exact evals_deterministic. Qed.
Print Assumptions Base_evals_deterministic.

Theorem Base_bind_evals : forall A B (r : run A) (f : A -> run B) a b,
  evals r a -> evals (f a) b -> evals (bind r f) b.
Proof. exact bind_evals. Qed.
Print Assumptions Base_bind_evals.

Theorem Base_bind_evals_inv : forall A B (r : run A) (f : A -> run B) b,
  evals (bind r f) b -> exists a, evals r a /\ evals (f a) b.
Proof. exact bind_evals_inv. Qed.
Print Assumptions Base_bind_evals_inv.

Theorem Base_decide_correct : forall prec c ia ib x y,
  contains (I.convert ia) (Xreal x) -> contains (I.convert ib) (Xreal y) ->
  (decide prec c ia ib = TT -> rcmp c x y = true) /\
  (decide prec c ia ib = TF -> rcmp c x y = false).
Proof. exact decide_correct. Qed.
Print Assumptions Base_decide_correct.

Theorem Base_floor_range_correct : forall i lo hi x,
  floor_range i = Some (lo, hi) -> contains (I.convert i) (Xreal x) -> (lo <= Zfloor x <= hi)%Z.
Proof. exact floor_range_correct. Qed.
Print Assumptions Base_floor_range_correct.
