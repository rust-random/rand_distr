(* Props/C07_scale.v — property C07 at the IEEE-754 level for the scale families (Flocq BinarySingleNaN, round to nearest even).
   The last operation of Exp::sample, Weibull::sample and Pareto::sample is ONE rounded multiplication of the parameter-free draw g
   (an opaque float: Exp1, (-ln x)^(1/k), u^(-1/shape)) by the scale parameter; Gamma multiplies by the scale last (small shape)
   resp. by fl(d * scale) (large shape).  Read off /repo on every run (Gen/FlProg.v, tools/flprog.py):
       exponential.rs:189  rng.sample(Exp1) * self.lambda_inverse         weibull.rs:104  self.scale * (..).powf(self.inv_shape)
       pareto.rs:102       self.scale * u.powf(self.inv_neg_shape)        gamma.rs:277,288
   Hence, absent overflow: sample = rnd(scale * g) — "the corresponding map up to floating-point rounding of that map", within
   u |scale g| + eta; exactly scale * g for a power-of-two scale; non-negative (C03); monotone in g.  Proofs in Proofs/ScaleFl.v. *)
From Coq Require Import ZArith Bool Reals.
From Flocq Require Import Core.Core IEEE754.BinarySingleNaN.
From RD Require Import Proofs.AffineFl Proofs.ScaleFl Gen.FlProg.
Open Scope R_scope.

Theorem C07_scale_fl_def : forall prec emax (Hp : Prec_gt_0 prec) (Hpe : Prec_lt_emax prec emax) (a b : binary_float prec emax),
  scale_fl prec emax Hp Hpe a b = Bmult mode_NE a b.
Proof. reflexivity. Qed.

Theorem C07_scale_source : forall prec emax (Hp : Prec_gt_0 prec) (Hpe : Prec_lt_emax prec emax) (s g d a b : binary_float prec emax),
  src_exp_sample prec emax Hp Hpe g s = scale_fl prec emax Hp Hpe g s /\
  src_weibull_sample prec emax Hp Hpe s g = scale_fl prec emax Hp Hpe s g /\
  src_pareto_sample prec emax Hp Hpe s g = scale_fl prec emax Hp Hpe s g /\
  src_gamma_large_sample prec emax Hp Hpe g d s = scale_fl prec emax Hp Hpe g (scale_fl prec emax Hp Hpe d s) /\
  src_gamma_small_sample prec emax Hp Hpe a b d s = scale_fl prec emax Hp Hpe (Bmult mode_NE (Bmult mode_NE a b) d) s.
Proof. intros. repeat split; reflexivity. Qed.

Theorem C07_scale_fl_value : forall prec emax (Hp : Prec_gt_0 prec) (Hpe : Prec_lt_emax prec emax) (a b : binary_float prec emax),
  is_finite a = true -> is_finite b = true -> Rabs (rnd prec emax (B2R a * B2R b)) < bpow radix2 emax ->
  B2R (scale_fl prec emax Hp Hpe a b) = rnd prec emax (B2R a * B2R b) /\ is_finite (scale_fl prec emax Hp Hpe a b) = true.
Proof. exact scale_fl_value. Qed.

Theorem C07_scale_fl_error : forall prec emax (Hp : Prec_gt_0 prec) (Hpe : Prec_lt_emax prec emax) (a b : binary_float prec emax),
  is_finite a = true -> is_finite b = true -> Rabs (rnd prec emax (B2R a * B2R b)) < bpow radix2 emax ->
  Rabs (B2R (scale_fl prec emax Hp Hpe a b) - B2R a * B2R b) <= u prec * Rabs (B2R a * B2R b) + eta prec emax.
Proof. exact scale_fl_error. Qed.

Theorem C07_scale_fl_comm_value : forall prec emax (Hp : Prec_gt_0 prec) (Hpe : Prec_lt_emax prec emax) (a b : binary_float prec emax),
  is_finite a = true -> is_finite b = true -> Rabs (rnd prec emax (B2R a * B2R b)) < bpow radix2 emax ->
  B2R (scale_fl prec emax Hp Hpe a b) = B2R (scale_fl prec emax Hp Hpe b a).
Proof. exact scale_fl_comm_value. Qed.

Theorem C07_scale_fl_nonneg : forall prec emax (Hp : Prec_gt_0 prec) (Hpe : Prec_lt_emax prec emax) (a b : binary_float prec emax),
  is_finite a = true -> is_finite b = true -> Rabs (rnd prec emax (B2R a * B2R b)) < bpow radix2 emax ->
  0 <= B2R a -> 0 <= B2R b -> 0 <= B2R (scale_fl prec emax Hp Hpe a b).
Proof. exact scale_fl_nonneg. Qed.

Theorem C07_scale_fl_monotone : forall prec emax (Hp : Prec_gt_0 prec) (Hpe : Prec_lt_emax prec emax) (s g1 g2 : binary_float prec emax),
  is_finite s = true -> is_finite g1 = true -> is_finite g2 = true ->
  Rabs (rnd prec emax (B2R s * B2R g1)) < bpow radix2 emax -> Rabs (rnd prec emax (B2R s * B2R g2)) < bpow radix2 emax ->
  0 <= B2R s -> B2R g1 <= B2R g2 -> B2R (scale_fl prec emax Hp Hpe s g1) <= B2R (scale_fl prec emax Hp Hpe s g2).
Proof. exact scale_fl_monotone. Qed.

Theorem C07_scale_fl_pow2 : forall prec emax (Hp : Prec_gt_0 prec) (Hpe : Prec_lt_emax prec emax) (s g : binary_float prec emax) (k : Z),
  is_finite s = true -> is_finite g = true -> B2R s = bpow radix2 k ->
  (B2R g = 0 \/ (0 <= k)%Z \/ bpow radix2 (aemin prec emax + prec - 1) <= Rabs (bpow radix2 k * B2R g)) ->
  Rabs (bpow radix2 k * B2R g) < bpow radix2 emax ->
  B2R (scale_fl prec emax Hp Hpe s g) = bpow radix2 k * B2R g /\ is_finite (scale_fl prec emax Hp Hpe s g) = true.
Proof. exact scale_fl_pow2. Qed.

(* the pre-computed reciprocals named in the property's anchors (exponential.rs:176-178, weibull.rs:90-93, pareto.rs:88-91), read
   off the struct literals of the constructors on every run, are the documented parameter transforms, rounded once *)
Theorem C07_recip_source : forall prec emax (Hp : Prec_gt_0 prec) (Hpe : Prec_lt_emax prec emax) (x : binary_float prec emax),
  src_exp_new_lambda_inverse prec emax Hp Hpe x = recip_fl prec emax Hp Hpe x /\
  src_weibull_new_inv_shape prec emax Hp Hpe x = recip_fl prec emax Hp Hpe x /\
  src_pareto_new_inv_neg_shape prec emax Hp Hpe x = neg_recip_fl prec emax Hp Hpe x /\
  recip_fl prec emax Hp Hpe x = Bdiv mode_NE (Bone (prec_gt_0_ := Hp) (prec_lt_emax_ := Hpe)) x /\
  neg_recip_fl prec emax Hp Hpe x = Bdiv mode_NE (Bopp (Bone (prec_gt_0_ := Hp) (prec_lt_emax_ := Hpe))) x.
Proof. intros. repeat split; reflexivity. Qed.

Theorem C07_recip_fl_value : forall prec emax (Hp : Prec_gt_0 prec) (Hpe : Prec_lt_emax prec emax) (x : binary_float prec emax),
  is_finite x = true -> B2R x <> 0 -> Rabs (rnd prec emax (1 / B2R x)) < bpow radix2 emax ->
  B2R (recip_fl prec emax Hp Hpe x) = rnd prec emax (1 / B2R x) /\ is_finite (recip_fl prec emax Hp Hpe x) = true.
Proof. exact recip_fl_value. Qed.

Theorem C07_neg_recip_fl_value : forall prec emax (Hp : Prec_gt_0 prec) (Hpe : Prec_lt_emax prec emax) (x : binary_float prec emax),
  is_finite x = true -> B2R x <> 0 -> Rabs (rnd prec emax (- 1 / B2R x)) < bpow radix2 emax ->
  B2R (neg_recip_fl prec emax Hp Hpe x) = rnd prec emax (- 1 / B2R x) /\ is_finite (neg_recip_fl prec emax Hp Hpe x) = true.
Proof. exact neg_recip_fl_value. Qed.

(* Exp(lambda): constructor and sample composed.  The sample is Exp1 / lambda up to two roundings. *)
Theorem C07_exp_sample_fl_def : forall prec emax (Hp : Prec_gt_0 prec) (Hpe : Prec_lt_emax prec emax) (g lambda : binary_float prec emax),
  exp_sample_fl prec emax Hp Hpe g lambda = src_exp_sample prec emax Hp Hpe g (src_exp_new_lambda_inverse prec emax Hp Hpe lambda).
Proof. reflexivity. Qed.

Theorem C07_exp_sample_fl_error : forall prec emax (Hp : Prec_gt_0 prec) (Hpe : Prec_lt_emax prec emax) (g lambda : binary_float prec emax),
  is_finite g = true -> is_finite lambda = true -> B2R lambda <> 0 ->
  Rabs (rnd prec emax (1 / B2R lambda)) < bpow radix2 emax ->
  Rabs (rnd prec emax (B2R g * rnd prec emax (1 / B2R lambda))) < bpow radix2 emax ->
  is_finite (exp_sample_fl prec emax Hp Hpe g lambda) = true /\
  Rabs (B2R (exp_sample_fl prec emax Hp Hpe g lambda) - B2R g / B2R lambda)
    <= (2 * u prec + u prec * u prec) * Rabs (B2R g / B2R lambda) + ((1 + u prec) * Rabs (B2R g) + 1) * eta prec emax.
Proof. exact exp_sample_fl_error. Qed.

(* C03 for Pareto's last step: a factor >= 1 never takes the sample below the scale (exactly) *)
Theorem C07_scale_fl_ge_scale : forall prec emax (Hp : Prec_gt_0 prec) (Hpe : Prec_lt_emax prec emax) (s g : binary_float prec emax),
  is_finite s = true -> is_finite g = true -> Rabs (rnd prec emax (B2R s * B2R g)) < bpow radix2 emax ->
  0 <= B2R s -> 1 <= B2R g -> B2R s <= B2R (scale_fl prec emax Hp Hpe s g).
Proof. exact scale_fl_ge_scale. Qed.

Print Assumptions C07_scale_fl_def.
Print Assumptions C07_scale_source.
Print Assumptions C07_scale_fl_value.
Print Assumptions C07_scale_fl_error.
Print Assumptions C07_scale_fl_comm_value.
Print Assumptions C07_scale_fl_nonneg.
Print Assumptions C07_scale_fl_monotone.
Print Assumptions C07_scale_fl_pow2.
Print Assumptions C07_recip_source.
Print Assumptions C07_recip_fl_value.
Print Assumptions C07_neg_recip_fl_value.
Print Assumptions C07_exp_sample_fl_def.
Print Assumptions C07_exp_sample_fl_error.
Print Assumptions C07_scale_fl_ge_scale.
