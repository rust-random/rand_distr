(* Props/C09.v — WeightedTreeIndex stays consistent with its weight list under any
   update history (integer weight types).  Statements only (proofs in Proofs/TreeBasics.v,
   TreeOps.v, TreeRefine.v), and one history run by computation.                *)
From Coq Require Import ZArith List Lia.
From RD Require Import Model.Tree Proofs.TreeBasics Proofs.TreeOps Proofs.TreeRefine.
Import ListNotations.
Open Scope Z_scope.

(* `new` accepts exactly the non-negative vectors whose total fits the type, builds the
   representation of the given list, and never panics *)
Theorem C09_new_spec : forall ty ws, wf_ty ty -> InRange ty ws ->
  match tree_new ty ws with
  | Ok t => Nonneg ws /\ zsum ws <= whi ty /\ Rep ws t
  | Err InvalidWeight => ~ Nonneg ws
  | Err Overflow => Nonneg ws /\ whi ty < zsum ws
  | Err _ => False
  | Panic => False
  end.
Proof. exact tree_new_spec. Qed.

(* one step: same output and same abstract list as the specification, invariant kept,
   never a panic for in-range arguments *)
Theorem C09_step_refines : forall ty t o, wf_ty ty -> Inv ty t -> op_ok ty t o ->
  spec_step ty (abs t) o = (abs (fst (step ty t o)), snd (step ty t o)) /\
  Inv ty (fst (step ty t o)) /\ snd (step ty t o) <> OutPanic.
Proof. exact step_refines. Qed.

(* every finite history *)
Theorem C09_history_refines : forall ty, wf_ty ty -> forall ops t, Inv ty t -> ops_ok ty t ops ->
  Inv ty (run ty t ops) /\
  abs (run ty t ops) = spec_run ty (abs t) ops /\
  outs ty t ops = spec_outs ty (abs t) ops /\
  ~ In OutPanic (outs ty t ops).
Proof. exact history_refines. Qed.

(* the value reached by any history from any accepted initial vector equals the fresh build
   of its current weight list *)
Theorem C09_history_eq_fresh : forall ty ws t0 ops, wf_ty ty -> InRange ty ws ->
  tree_new ty ws = Ok t0 -> ops_ok ty t0 ops ->
  tree_new ty (abs (run ty t0 ops)) = Ok (run ty t0 ops).
Proof. exact history_eq_fresh. Qed.

Theorem C09_observers : forall ty t, wf_ty ty -> Inv ty t ->
  tree_len t = Z.of_nat (length (abs t)) /\
  tree_is_empty t = tree_is_empty (abs t) /\
  (forall i, (i < length t)%nat -> get_chk ty t i = Ok (nthz (abs t) i)) /\
  tree_is_valid t = (0 <? zsum (abs t)).
Proof. exact inv_observers. Qed.

Theorem C09_error_atomic : forall ty t o e, snd (step ty t o) = OutErr e -> fst (step ty t o) = t.
Proof. exact step_error_atomic. Qed.

Theorem C09_rep_unique : forall w t1 t2, Rep w t1 -> Rep w t2 -> t1 = t2.
Proof. exact rep_unique. Qed.

(* non-vacuity: a concrete history (u8) with a level-opening push, an inner-node update,
   an overflow rejection and a pop across a level boundary meets the hypotheses *)
Definition u8 := {| wlo := 0; whi := 255 |}.
Definition ex_ops := [OpPush 7; OpPush 250; OpUpdate 0 5; OpPop; OpPush 1; OpUpdate 1 0; OpPop; OpPop].
Example C09_nonvacuous :
  wf_ty u8 /\ tree_new u8 [1; 2; 3] = Ok [6; 2; 3] /\ ops_ok u8 [6; 2; 3] ex_ops /\
  outs u8 [6;2;3] ex_ops =
    [OutUnit; OutErr Overflow; OutUnit; OutPop (Some 7); OutUnit; OutUnit; OutPop (Some 1); OutPop (Some 3)] /\
  run u8 [6;2;3] ex_ops = [5; 0].
Proof.
  split; [unfold wf_ty, u8; simpl; lia|].
  split; [vm_compute; reflexivity|].
  split; [apply ops_okb_sound; vm_compute; reflexivity|].
  split; vm_compute; reflexivity.
Qed.

Print Assumptions C09_new_spec.
Print Assumptions C09_step_refines.
Print Assumptions C09_history_refines.
Print Assumptions C09_history_eq_fresh.
Print Assumptions C09_observers.
Print Assumptions C09_error_atomic.
Print Assumptions C09_rep_unique.
Print Assumptions C09_nonvacuous.
