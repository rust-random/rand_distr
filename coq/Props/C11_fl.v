(* Props/C11_fl.v — property C11 at the IEEE-754 level (Flocq BinarySingleNaN, round to nearest even), for the stick-breaking
   loop of DirichletFromBeta::sample_to_slice (dirichlet.rs:163-174), which involves no libm call:
       acc = 1;  for each beta_i:  out_i = acc * beta_i;  acc = acc * (1 - beta_i);   out_last = acc.
   If the Beta draws are finite floats in [0, 1] - which C03_beta_final_in_unit proves of Beta::sample's last step - then the output
   has exactly len(betas) + 1 components and every component is a FINITE FLOAT IN [0, 1] (no NaN, no overflow), for vectors of any
   length, in binary32 and binary64.  Statement only; proof in Proofs/DirichletFl.v.                                              *)
From Coq Require Import ZArith Bool Reals List.
From Flocq Require Import Core.Core IEEE754.BinarySingleNaN.
From RD Require Import Proofs.BetaFinalFl Proofs.DirichletFl Proofs.AffineFl Proofs.DirichletSumFl Gen.FlProg.
Import ListNotations.
Open Scope R_scope.

Theorem C11_sticks_fl_def : forall prec emax (Hp : Prec_gt_0 prec) (Hpe : Prec_lt_emax prec emax) (acc b : binary_float prec emax) r,
  sticks_fl prec emax Hp Hpe acc [] = [acc] /\
  sticks_fl prec emax Hp Hpe acc (b :: r) =
    Bmult mode_NE acc b :: sticks_fl prec emax Hp Hpe (Bmult mode_NE acc (Bminus mode_NE Bone b)) r.
Proof. intros. split; reflexivity. Qed.

Theorem C11_in_unit_def : forall prec emax (r : binary_float prec emax),
  in_unit prec emax r <-> is_finite r = true /\ 0 <= B2R r <= 1.
Proof. intros. reflexivity. Qed.

Theorem C11_dirichlet_sticks_fl : forall prec emax (Hp : Prec_gt_0 prec) (Hpe : Prec_lt_emax prec emax) (betas : list (binary_float prec emax)),
  Forall (in_unit prec emax) betas ->
  Forall (in_unit prec emax) (sticks_fl prec emax Hp Hpe Bone betas) /\
  length (sticks_fl prec emax Hp Hpe Bone betas) = S (length betas).
Proof. exact dirichlet_sticks_fl. Qed.

Example C11_sticks_fl_binary64 : forall betas : list (binary_float 53 1024), Forall (in_unit 53 1024) betas ->
  Forall (in_unit 53 1024) (sticks_fl 53 1024 eq_refl eq_refl (@Bone 53 1024 eq_refl eq_refl) betas).
Proof. intros betas H. apply (C11_dirichlet_sticks_fl 53 1024 eq_refl eq_refl betas H). Qed.

(* "summing to 1 within a few ulp": the REAL sum of the float components is within len * (2u + 3 eta) of 1, any length *)
Theorem C11_sumR_def : forall prec emax (x : binary_float prec emax) l,
  sumR prec emax [] = 0 /\ sumR prec emax (x :: l) = B2R x + sumR prec emax l.
Proof. intros. split; reflexivity. Qed.

Theorem C11_dirichlet_sum_fl : forall prec emax (Hp : Prec_gt_0 prec) (Hpe : Prec_lt_emax prec emax) (betas : list (binary_float prec emax)),
  Forall (in_unit prec emax) betas ->
  Rabs (sumR prec emax (sticks_fl prec emax Hp Hpe Bone betas) - 1)
    <= INR (length betas) * (2 * bpow radix2 (- prec) + 3 * (/ 2 * bpow radix2 (3 - emax - prec))).
Proof. exact dirichlet_sum_fl. Qed.

(* one step of the loop: out + acc' - acc *)
Theorem C11_stick_step : forall prec emax (Hp : Prec_gt_0 prec) (Hpe : Prec_lt_emax prec emax) (acc b : binary_float prec emax),
  in_unit prec emax acc -> in_unit prec emax b ->
  Rabs (B2R (Bmult mode_NE acc b) + B2R (Bmult mode_NE acc (Bminus mode_NE (Bone (prec_gt_0_ := Hp) (prec_lt_emax_ := Hpe)) b)) - B2R acc)
    <= 2 * bpow radix2 (- prec) + 3 * (/ 2 * bpow radix2 (3 - emax - prec)).
Proof. exact stick_step. Qed.

(* tie to the source: the two assignments of the loop body in multi/dirichlet.rs (`*s = …`, `acc = …`) as read off /repo on
   every run (Gen/FlProg.v, tools/flprog.py) are the step of sticks_fl. *)
Theorem C11_fl_source : forall prec emax (Hp : Prec_gt_0 prec) (Hpe : Prec_lt_emax prec emax) (acc b : binary_float prec emax) r,
  sticks_fl prec emax Hp Hpe acc (b :: r) =
    src_dirichlet_stick_out prec emax Hp Hpe acc b :: sticks_fl prec emax Hp Hpe (src_dirichlet_stick_acc prec emax Hp Hpe acc b) r.
Proof. intros. reflexivity. Qed.

Print Assumptions C11_sticks_fl_def.
Print Assumptions C11_in_unit_def.
Print Assumptions C11_dirichlet_sticks_fl.
Print Assumptions C11_sumR_def.
Print Assumptions C11_dirichlet_sum_fl.
Print Assumptions C11_stick_step.
Print Assumptions C11_fl_source.
