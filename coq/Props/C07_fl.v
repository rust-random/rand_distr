(* Props/C07_fl.v — property C07 at the IEEE-754 level (Flocq BinarySingleNaN, round to nearest even) for Normal::from_zscore
   (normal.rs:224-226: self.mean + self.std_dev * zscore), the map every Normal / LogNormal / SkewNormal sample goes through:
     - value: absent overflow the float result IS the nested rounding rnd(mean + rnd(sd * z)) and is finite;
     - "up to floating-point rounding of that map": its distance to the real affine map mean + sd*z is at most
       u |mean + sd z| + u (2 + u) |sd z| + (1 + u) eta,  u = 2^-prec, eta = half the least subnormal;
     - scaling by a power of two is exact (sd = 2^k, no underflow);
     - NaN propagates; z = +-inf with finite mean and non-zero finite sd gives the infinity of sign sd*z; sd = 0 returns mean.
   Statements only; proofs in Proofs/AffineFl.v.                                                                                  *)
From Coq Require Import ZArith Bool Reals.
From Flocq Require Import Core.Core IEEE754.BinarySingleNaN.
From RD Require Import Proofs.AffineFl Gen.FlProg.
Open Scope R_scope.

Theorem C07_from_zscore_fl_def : forall prec emax (Hp : Prec_gt_0 prec) (Hpe : Prec_lt_emax prec emax) (mean sd z : binary_float prec emax),
  from_zscore_fl prec emax Hp Hpe mean sd z = Bplus mode_NE mean (Bmult mode_NE sd z).
Proof. reflexivity. Qed.

Theorem C07_from_zscore_fl_value : forall prec emax (Hp : Prec_gt_0 prec) (Hpe : Prec_lt_emax prec emax) (mean sd z : binary_float prec emax),
  is_finite mean = true -> is_finite sd = true -> is_finite z = true ->
  Rabs (rnd prec emax (B2R sd * B2R z)) < bpow radix2 emax ->
  Rabs (rnd prec emax (B2R mean + rnd prec emax (B2R sd * B2R z))) < bpow radix2 emax ->
  B2R (from_zscore_fl prec emax Hp Hpe mean sd z) = rnd prec emax (B2R mean + rnd prec emax (B2R sd * B2R z)) /\
  is_finite (from_zscore_fl prec emax Hp Hpe mean sd z) = true.
Proof. exact from_zscore_fl_value. Qed.

Theorem C07_from_zscore_fl_error : forall prec emax (Hp : Prec_gt_0 prec) (Hpe : Prec_lt_emax prec emax) (mean sd z : binary_float prec emax),
  is_finite mean = true -> is_finite sd = true -> is_finite z = true ->
  Rabs (rnd prec emax (B2R sd * B2R z)) < bpow radix2 emax ->
  Rabs (rnd prec emax (B2R mean + rnd prec emax (B2R sd * B2R z))) < bpow radix2 emax ->
  Rabs (B2R (from_zscore_fl prec emax Hp Hpe mean sd z) - (B2R mean + B2R sd * B2R z)) <=
    u prec * Rabs (B2R mean + B2R sd * B2R z) + u prec * (2 + u prec) * Rabs (B2R sd * B2R z) + (1 + u prec) * eta prec emax.
Proof. exact from_zscore_fl_error. Qed.

Theorem C07_scale_pow2_exact : forall prec emax (Hp : Prec_gt_0 prec) (Hpe : Prec_lt_emax prec emax) (sd z : binary_float prec emax) (k : Z),
  is_finite sd = true -> is_finite z = true -> B2R sd = bpow radix2 k ->
  B2R z = 0 \/ (0 <= k)%Z \/ bpow radix2 (aemin prec emax + prec - 1) <= Rabs (bpow radix2 k * B2R z) ->
  Rabs (bpow radix2 k * B2R z) < bpow radix2 emax ->
  B2R (Bmult mode_NE sd z) = bpow radix2 k * B2R z /\ is_finite (Bmult mode_NE sd z) = true.
Proof. exact Bmult_pow2_exact. Qed.

Theorem C07_from_zscore_fl_nan : forall prec emax (Hp : Prec_gt_0 prec) (Hpe : Prec_lt_emax prec emax) (mean sd z : binary_float prec emax),
  is_nan mean = true \/ is_nan sd = true \/ is_nan z = true -> is_nan (from_zscore_fl prec emax Hp Hpe mean sd z) = true.
Proof. exact from_zscore_fl_nan. Qed.

Theorem C07_from_zscore_fl_z_inf : forall prec emax (Hp : Prec_gt_0 prec) (Hpe : Prec_lt_emax prec emax) (mean sd : binary_float prec emax) (sz : bool),
  is_finite mean = true -> is_finite_strict sd = true ->
  from_zscore_fl prec emax Hp Hpe mean sd (B754_infinity sz) = B754_infinity (xorb (Bsign sd) sz).
Proof. exact from_zscore_fl_z_inf. Qed.

Theorem C07_from_zscore_fl_sd_zero : forall prec emax (Hp : Prec_gt_0 prec) (Hpe : Prec_lt_emax prec emax) (mean : binary_float prec emax) (s : bool)
  (z : binary_float prec emax),
  is_finite mean = true -> is_finite z = true -> B2R mean <> 0 -> from_zscore_fl prec emax Hp Hpe mean (B754_zero s) z = mean.
Proof. exact from_zscore_fl_sd_zero_eq. Qed.

(* the same shape serves Cauchy (cauchy.rs:112: median + scale * tan) and Frechet; Gumbel (gumbel.rs:100) subtracts: *)
Theorem C07_affine_sub_fl_def : forall prec emax (Hp : Prec_gt_0 prec) (Hpe : Prec_lt_emax prec emax) (loc scale g : binary_float prec emax),
  affine_sub_fl prec emax Hp Hpe loc scale g = Bminus mode_NE loc (Bmult mode_NE scale g).
Proof. reflexivity. Qed.

Theorem C07_affine_sub_fl_value : forall prec emax (Hp : Prec_gt_0 prec) (Hpe : Prec_lt_emax prec emax) (loc scale g : binary_float prec emax),
  is_finite loc = true -> is_finite scale = true -> is_finite g = true ->
  Rabs (rnd prec emax (B2R scale * B2R g)) < bpow radix2 emax ->
  Rabs (rnd prec emax (B2R loc - rnd prec emax (B2R scale * B2R g))) < bpow radix2 emax ->
  B2R (affine_sub_fl prec emax Hp Hpe loc scale g) = rnd prec emax (B2R loc - rnd prec emax (B2R scale * B2R g)) /\
  is_finite (affine_sub_fl prec emax Hp Hpe loc scale g) = true.
Proof. exact affine_sub_fl_value. Qed.

Theorem C07_affine_sub_fl_error : forall prec emax (Hp : Prec_gt_0 prec) (Hpe : Prec_lt_emax prec emax) (loc scale g : binary_float prec emax),
  is_finite loc = true -> is_finite scale = true -> is_finite g = true ->
  Rabs (rnd prec emax (B2R scale * B2R g)) < bpow radix2 emax ->
  Rabs (rnd prec emax (B2R loc - rnd prec emax (B2R scale * B2R g))) < bpow radix2 emax ->
  Rabs (B2R (affine_sub_fl prec emax Hp Hpe loc scale g) - (B2R loc - B2R scale * B2R g)) <=
    u prec * Rabs (B2R loc - B2R scale * B2R g) + u prec * (2 + u prec) * Rabs (B2R scale * B2R g) + (1 + u prec) * eta prec emax.
Proof. exact affine_sub_fl_error. Qed.

(* tie to the source: Gen/FlProg.v is regenerated from /repo on every run by tools/flprog.py; the programs it reads off
   normal.rs (from_zscore), cauchy.rs, frechet.rs and gumbel.rs (the trailing expression of sample; libm calls opaque) ARE the
   hand-written programs the theorems above speak about. *)
Theorem C07_fl_source : forall prec emax (Hp : Prec_gt_0 prec) (Hpe : Prec_lt_emax prec emax) (loc scale z : binary_float prec emax),
  src_normal_from_zscore prec emax Hp Hpe loc scale z = from_zscore_fl prec emax Hp Hpe loc scale z /\
  src_cauchy_sample prec emax Hp Hpe loc scale z = from_zscore_fl prec emax Hp Hpe loc scale z /\
  src_frechet_sample prec emax Hp Hpe loc scale z = from_zscore_fl prec emax Hp Hpe loc scale z /\
  src_gumbel_sample prec emax Hp Hpe loc scale z = affine_sub_fl prec emax Hp Hpe loc scale z.
Proof. intros. repeat split; reflexivity. Qed.

Definition u_def_check : forall prec, u prec = bpow radix2 (- prec) := fun _ => eq_refl.
Definition eta_def_check : forall prec emax, eta prec emax = / 2 * bpow radix2 (3 - emax - prec) := fun _ _ => eq_refl.
Definition rnd_def_check : forall prec emax x, rnd prec emax x = round radix2 (FLT_exp (3 - emax - prec) prec) ZnearestE x := fun _ _ _ => eq_refl.

Print Assumptions C07_from_zscore_fl_def.
Print Assumptions C07_from_zscore_fl_value.
Print Assumptions C07_from_zscore_fl_error.
Print Assumptions C07_scale_pow2_exact.
Print Assumptions C07_from_zscore_fl_nan.
Print Assumptions C07_from_zscore_fl_z_inf.
Print Assumptions C07_from_zscore_fl_sd_zero.
Print Assumptions C07_affine_sub_fl_def.
Print Assumptions C07_affine_sub_fl_value.
Print Assumptions C07_affine_sub_fl_error.
Print Assumptions C07_fl_source.
