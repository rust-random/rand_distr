(* Props/C02_identities.v — the real-number / integer identities that make the discrete samplers of
   rand_distr produce their documented probability mass functions (ideal arithmetic, all parameters).
   Statements only; proofs in Proofs/PmfBinomial.v, PmfGeometric.v, PmfHyper.v, PmfZeta.v, PmfZipf.v,
   PmfPoisson.v.  Every Fixpoint/Definition used in a statement has its defining equations restated
   here as a C02_*_def theorem.

   Vocabulary
     C n k                 binomial coefficient of Coq's Reals.Binomial (n!/(k!(n-k)!), used for k <= n)
     psum r x              r 0 + ... + r (x-1)
     seq_loop r fuel u x   `while u > r x { u -= r x; x += 1 }; x` with an iteration bound
     binv_loop a s ..      the same loop with r carried as a variable, r *= a/x - s   (binomial.rs:196-203)
     hyper_pmf N K n x     C K x * C (N-K) (n-x) / C N n
     hyper_setup N K n     (n1, n2, k, sign_x, offset_x) as computed by Hypergeometric::new
     lz64 w                u64::leading_zeros;   Zcount P n = #{ w in [0,n) : P w }
     zeta_b, zeta_t, zeta_accept     b, t and t(b-1)/(x(t-1)b) of zeta.rs
     zipf_hat/_Hcum/_t/_inv/_ratio   hat density, its cumulative, its total mass, inv_cdf, ratio (zipf.rs)
     lprod, knuth                    list product, KnuthMethod::sample over a list of uniforms        *)
From Coquelicot Require Import Coquelicot.   (* only for is_RInt (Zipf); imported first because it *)
From Coq Require Import Reals ZArith List Bool Lra Lia. (* defines a type C that would hide Binomial.C        *)
From RD Require Import Proofs.PmfBinomial Proofs.PmfGeometric Proofs.PmfHyper Proofs.PmfZeta
  Proofs.PmfZipf Proofs.PmfPoisson.
Import ListNotations.
Open Scope R_scope.

(* 1. Binomial: BINV (binomial.rs:150-163, 184-208) *)

Theorem C02_binv_r_def : forall n p,
  binv_r n p 0 = (1 - p) ^ n /\
  forall x, binv_r n p (S x)
            = binv_r n p x * ((INR n + 1) * (p / (1 - p)) / INR (S x) - p / (1 - p)).
Proof. exact binv_r_def. Qed.
Print Assumptions C02_binv_r_def.

Theorem C02_psum_def : forall r, psum r 0 = 0 /\ forall x, psum r (S x) = psum r x + r x.
Proof. exact psum_def. Qed.
Print Assumptions C02_psum_def.

Theorem C02_seq_loop_def : forall r u x,
  seq_loop r 0 u x = None /\
  forall f, seq_loop r (S f) u x
            = if Rlt_dec (r x) u then seq_loop r f (u - r x) (S x) else Some x.
Proof. exact seq_loop_def. Qed.
Print Assumptions C02_seq_loop_def.

Theorem C02_binv_loop_def : forall a s u r x,
  binv_loop a s 0 u r x = None /\
  forall f, binv_loop a s (S f) u r x
            = if Rlt_dec r u then binv_loop a s f (u - r) (r * (a / INR (S x) - s)) (S x)
              else Some x.
Proof. exact binv_loop_def. Qed.
Print Assumptions C02_binv_loop_def.

(* r_0 = q^n, r_{x+1} = r_x (a/(x+1) - s)  ==>  r_x = C(n,x) p^x q^(n-x) *)
Theorem C02_binv_recurrence : forall (n : nat) (p : R), 0 < p < 1 ->
  forall x, (x <= n)%nat -> binv_r n p x = C n x * p ^ x * (1 - p) ^ (n - x).
Proof. exact binv_recurrence. Qed.
Print Assumptions C02_binv_recurrence.

Theorem C02_binv_recurrence_tail : forall (n : nat) (p : R), 0 < p < 1 ->
  forall x, (n < x)%nat -> binv_r n p x = 0.
Proof. exact binv_recurrence_tail. Qed.
Print Assumptions C02_binv_recurrence_tail.

(* the same for any sequence obeying the update of the code (no project definition involved) *)
Theorem C02_binv_recurrence_seq : forall (n : nat) (p : R) (r : nat -> R), 0 < p < 1 ->
  let q := 1 - p in let s := p / q in let a := (INR n + 1) * s in
  r 0%nat = q ^ n ->
  (forall x, r (S x) = r x * (a / INR (S x) - s)) ->
  (forall x, (x <= n)%nat -> r x = C n x * p ^ x * q ^ (n - x)) /\
  (forall x, (n < x)%nat -> r x = 0).
Proof. exact binv_recurrence_seq. Qed.
Print Assumptions C02_binv_recurrence_seq.

Theorem C02_binom_pmf_total : forall (n : nat) (p : R),
  sum_f_R0 (fun x => C n x * p ^ x * (1 - p) ^ (n - x)) n = 1.
Proof. exact binom_pmf_total. Qed.
Print Assumptions C02_binom_pmf_total.

(* the loop returns x iff all earlier partial sums are < u and the x-th one is >= u *)
Theorem C02_seq_loop_event : forall r fuel u x,
  seq_loop r fuel u 0 = Some x <->
  (x < fuel)%nat /\ (forall j, (j < x)%nat -> psum r (S j) < u) /\ u <= psum r (S x).
Proof. exact seq_loop_event. Qed.
Print Assumptions C02_seq_loop_event.

(* S(x-1) < u <= S(x) *)
Theorem C02_binv_event : forall r fuel u x, (forall j, 0 <= r j) -> 0 < u ->
  (seq_loop r fuel u 0 = Some x <-> (x < fuel)%nat /\ psum r x < u <= psum r (S x)).
Proof. exact binv_event. Qed.
Print Assumptions C02_binv_event.

Theorem C02_binv_loop_seq : forall n p fuel u x,
  binv_loop ((INR n + 1) * (p / (1 - p))) (p / (1 - p)) fuel u (binv_r n p x) x
  = seq_loop (binv_r n p) fuel u x.
Proof. exact binv_loop_seq. Qed.
Print Assumptions C02_binv_loop_seq.

(* BINV as coded returns x iff u lies in the x-th cell of the binomial cdf *)
Theorem C02_binv_sampler_event : forall (n : nat) (p : R) fuel u x,
  0 < p < 1 -> 0 < u -> (x <= n)%nat ->
  let q := 1 - p in let s := p / q in let a := (INR n + 1) * s in
  (binv_loop a s fuel u (q ^ n) 0 = Some x <->
   (x < fuel)%nat /\
   psum (fun j => C n j * p ^ j * (1 - p) ^ (n - j)) x < u
     <= psum (fun j => C n j * p ^ j * (1 - p) ^ (n - j)) (S x)).
Proof. exact binv_sampler_event. Qed.
Print Assumptions C02_binv_sampler_event.

(* 2. Binomial: the p > 0.5 flip (binomial.rs:131-133, 207) *)

Theorem C02_binomial_flip : forall (n x : nat) (p : R), (x <= n)%nat ->
  C n x * p ^ x * (1 - p) ^ (n - x) = C n (n - x) * (1 - p) ^ (n - x) * p ^ x.
Proof. exact binomial_flip. Qed.
Print Assumptions C02_binomial_flip.

(* pmf of Bin(n,1-p) at y  =  pmf of Bin(n,p) at n - y *)
Theorem C02_binomial_flip_sample : forall (n y : nat) (p : R), (y <= n)%nat ->
  C n y * (1 - p) ^ y * (1 - (1 - p)) ^ (n - y)
  = C n (n - y) * p ^ (n - y) * (1 - p) ^ (n - (n - y)).
Proof. exact binomial_flip_sample. Qed.
Print Assumptions C02_binomial_flip_sample.

Example C02_ex_binomial :
  binv_r 5 (1/4) 2 = C 5 2 * (1/4) ^ 2 * (1 - 1/4) ^ (5 - 2) /\
  binv_loop ((INR 5 + 1) * ((1/4) / (1 - 1/4))) ((1/4) / (1 - 1/4)) 111 (1/2) ((1 - 1/4) ^ 5) 0
    = Some 1%nat.
Proof.
  split.
  - apply C02_binv_recurrence; [lra|lia].
  - apply (C02_binv_sampler_event 5 (1/4) 111 (1/2) 1); [lra|lra|lia|].
    split; [lia|]. unfold psum, C. simpl. lra.
Qed.

(* 3. Geometric (geometric.rs:79-97, 129-159, 190-200) *)

Theorem C02_geometric_pi_lt_1 : forall p k, 0 < p < 1 -> 0 < (1 - p) ^ (2 ^ k) < 1.
Proof. exact geometric_pi_lt_1. Qed.
Print Assumptions C02_geometric_pi_lt_1.

(* Geo(p) at d*2^k + m  =  Geo(1-pi) at d  *  (Geo(p) mod 2^k) at m *)
Theorem C02_geometric_split : forall (p : R) (k d m : nat), 0 < p < 1 -> (m < 2 ^ k)%nat ->
  let pi := (1 - p) ^ (2 ^ k) in
  (1 - p) ^ (d * 2 ^ k + m) * p = (pi ^ d * (1 - pi)) * ((1 - p) ^ m * p / (1 - pi)).
Proof. exact geometric_split. Qed.
Print Assumptions C02_geometric_split.

Theorem C02_geometric_block_sum : forall (p : R) (k : nat),
  psum (fun m => (1 - p) ^ m * p) (2 ^ k) = 1 - (1 - p) ^ (2 ^ k).
Proof. exact geometric_block_sum. Qed.
Print Assumptions C02_geometric_block_sum.

Theorem C02_geometric_remainder_pmf : forall (p : R) (k : nat), 0 < p < 1 ->
  let pi := (1 - p) ^ (2 ^ k) in
  (forall m, 0 < (1 - p) ^ m * p / (1 - pi)) /\
  psum (fun m => (1 - p) ^ m * p / (1 - pi)) (2 ^ k) = 1.
Proof. exact geometric_remainder_pmf. Qed.
Print Assumptions C02_geometric_remainder_pmf.

Theorem C02_geometric_quotient_sum : forall (p : R) (k D : nat),
  let pi := (1 - p) ^ (2 ^ k) in
  psum (fun d => pi ^ d * (1 - pi)) D = 1 - pi ^ D.
Proof. exact geometric_quotient_sum. Qed.
Print Assumptions C02_geometric_quotient_sum.

(* (d, m) |-> (d << k) + m is a bijection onto nat *)
Theorem C02_geometric_decomp : forall (k x : nat),
  exists d m, (m < 2 ^ k)%nat /\ x = (d * 2 ^ k + m)%nat /\
    forall d' m', (m' < 2 ^ k)%nat -> x = (d' * 2 ^ k + m')%nat -> d' = d /\ m' = m.
Proof. exact geometric_decomp. Qed.
Print Assumptions C02_geometric_decomp.

Open Scope Z_scope.

Theorem C02_Zcount_def : forall P,
  Zcount P 0 = 0 /\
  forall n, Zcount P (S n) = Zcount P n + (if P (Z.of_nat n) then 1 else 0).
Proof. exact Zcount_def. Qed.
Print Assumptions C02_Zcount_def.

Theorem C02_lz64_def : forall w, lz64 w = if w =? 0 then 64 else 63 - Z.log2 w.
Proof. exact lz64_def. Qed.
Print Assumptions C02_lz64_def.

(* w has x leading zeros iff 2^(63-x) <= w < 2^(64-x) *)
Theorem C02_lz64_range : forall w x, 0 <= w < 2 ^ 64 -> 0 <= x < 64 ->
  (lz64 w = x <-> 2 ^ (63 - x) <= w < 2 ^ (64 - x)).
Proof. exact lz64_range. Qed.
Print Assumptions C02_lz64_range.

Theorem C02_lz64_zero : forall w, 0 <= w < 2 ^ 64 -> (lz64 w = 64 <-> w = 0).
Proof. exact lz64_zero. Qed.
Print Assumptions C02_lz64_zero.

Theorem C02_lz64_bits : forall w x, 0 <= w < 2 ^ 64 -> 0 <= x < 64 -> lz64 w = x ->
  Z.testbit w (63 - x) = true /\ forall j, 63 - x < j -> Z.testbit w j = false.
Proof. exact lz64_bits. Qed.
Print Assumptions C02_lz64_bits.

(* #{ w in [0,2^64) : 2^(63-x) <= w < 2^(64-x) } = 2^(63-x), i.e. P(X = x) = 2^-(x+1) *)
Theorem C02_std_geometric_form : forall x, 0 <= x < 64 ->
  Zcount (fun w => (2 ^ (63 - x) <=? w) && (w <? 2 ^ (64 - x))) (Z.to_nat (2 ^ 64)) = 2 ^ (63 - x).
Proof. exact std_geometric_form. Qed.
Print Assumptions C02_std_geometric_form.

Theorem C02_std_geometric_lz_count : forall x, 0 <= x < 64 ->
  Zcount (fun w => lz64 w =? x) (Z.to_nat (2 ^ 64)) = 2 ^ (63 - x).
Proof. exact std_geometric_lz_count. Qed.
Print Assumptions C02_std_geometric_lz_count.

(* exactly one word (0) has 64 leading zeros and makes the loop draw again *)
Theorem C02_std_geometric_continue_count :
  Zcount (fun w => lz64 w =? 64) (Z.to_nat (2 ^ 64)) = 1.
Proof. exact std_geometric_continue_count. Qed.
Print Assumptions C02_std_geometric_continue_count.

Example C02_ex_geometric :
  ((1 - 1/3) ^ (3 * 2 ^ 2 + 1) * (1/3)
   = (((1 - 1/3) ^ (2 ^ 2)) ^ 3 * (1 - (1 - 1/3) ^ (2 ^ 2)))
     * ((1 - 1/3) ^ 1 * (1/3) / (1 - (1 - 1/3) ^ (2 ^ 2))))%R /\
  Zcount (fun w => lz64 w =? 2) (Z.to_nat (2 ^ 64)) = 2 ^ 61.
Proof.
  split.
  - apply (C02_geometric_split (1/3) 2 3 1); [lra|simpl; lia].
  - apply (C02_std_geometric_lz_count 2). lia.
Qed.

(* 4. Hypergeometric (hypergeometric.rs:162-193, 207-218, 313-318, 445) *)

Theorem C02_hyper_pmf_def : forall N K n x,
  hyper_pmf N K n x = (C K x * C (N - K) (n - x) / C N n)%R.
Proof. exact hyper_pmf_def. Qed.
Print Assumptions C02_hyper_pmf_def.

Theorem C02_hyper_setup_def : forall N K n : Z,
  hyper_setup N K n =
  (let '(sign_x, offset_x, n1, n2) :=
     if K >? N - K then (-1, n, N - K, K) else (1, 0, K, N - K) in
   if n <=? N / 2 then (n1, n2, n, sign_x, offset_x)
   else (n1, n2, N - n, sign_x * -1, offset_x + n1 * sign_x)).
Proof. exact hyper_setup_def. Qed.
Print Assumptions C02_hyper_setup_def.

Theorem C02_hyper_sym_K : forall N K n x, (K <= N)%nat -> (x <= n)%nat ->
  hyper_pmf N K n x = hyper_pmf N (N - K) n (n - x).
Proof. exact hyper_sym_K. Qed.
Print Assumptions C02_hyper_sym_K.

Theorem C02_hyper_sym_n : forall N K n x, (K <= N)%nat -> (n <= N)%nat ->
  (x <= K)%nat -> (x <= n)%nat -> (n - x <= N - K)%nat ->
  hyper_pmf N K n x = hyper_pmf N K (N - n) (K - x).
Proof. exact hyper_sym_n. Qed.
Print Assumptions C02_hyper_sym_n.

Theorem C02_hyper_reduced_params : forall N K n n1 n2 k sg off,
  0 <= K <= N -> 0 <= n <= N -> hyper_setup N K n = (n1, n2, k, sg, off) ->
  n1 + n2 = N /\ 0 <= n1 <= n2 /\ 0 <= k /\ 2 * k <= N /\ k <= N / 2 /\ (sg = 1 \/ sg = -1).
Proof. exact hyper_reduced_params. Qed.
Print Assumptions C02_hyper_reduced_params.

(* x |-> offset_x + sign_x * x : reduced support -> original support is a bijection *)
Theorem C02_hyper_reflect_bijection : forall N K n n1 n2 k sg off,
  0 <= K <= N -> 0 <= n <= N -> hyper_setup N K n = (n1, n2, k, sg, off) ->
  (forall x, Z.max 0 (k - n2) <= x <= Z.min n1 k ->
     Z.max 0 (n + K - N) <= off + sg * x <= Z.min n K) /\
  (forall y, Z.max 0 (n + K - N) <= y <= Z.min n K ->
     exists x, Z.max 0 (k - n2) <= x <= Z.min n1 k /\ off + sg * x = y) /\
  (forall x x', off + sg * x = off + sg * x' -> x = x').
Proof. exact hyper_reflect_bijection. Qed.
Print Assumptions C02_hyper_reflect_bijection.

(* and it carries the reduced pmf to the original one *)
Theorem C02_hyper_reflect_pmf : forall (N K n : nat) n1 n2 k sg off,
  (K <= N)%nat -> (n <= N)%nat ->
  hyper_setup (Z.of_nat N) (Z.of_nat K) (Z.of_nat n) = (n1, n2, k, sg, off) ->
  forall x : nat, Z.max 0 (k - n2) <= Z.of_nat x <= Z.min n1 k ->
  hyper_pmf N K n (Z.to_nat (off + sg * Z.of_nat x))
  = hyper_pmf (Z.to_nat (n1 + n2)) (Z.to_nat n1) (Z.to_nat k) x.
Proof. exact hyper_reflect_pmf. Qed.
Print Assumptions C02_hyper_reflect_pmf.

Open Scope R_scope.

(* HIN update: p *= (n1 - x)(k - x); p /= (x + 1)(n2 - k + 1 + x) *)
Theorem C02_hin_recurrence : forall n1 n2 k x : nat,
  (S x <= n1)%nat -> (S x <= k)%nat -> (k - x <= n2)%nat ->
  hyper_pmf (n1 + n2) n1 k (S x)
  = hyper_pmf (n1 + n2) n1 k x * ((INR n1 - INR x) * (INR k - INR x))
      / ((INR x + 1) * (INR n2 - INR k + 1 + INR x)).
Proof. exact hin_recurrence. Qed.
Print Assumptions C02_hin_recurrence.

Theorem C02_hin_ratio : forall n1 n2 k x : nat,
  (S x <= n1)%nat -> (S x <= k)%nat -> (k - x <= n2)%nat -> (k <= n1 + n2)%nat ->
  hyper_pmf (n1 + n2) n1 k (S x) / hyper_pmf (n1 + n2) n1 k x
  = (INR n1 - INR x) * (INR k - INR x) / ((INR x + 1) * (INR n2 - INR k + 1 + INR x)).
Proof. exact hin_ratio. Qed.
Print Assumptions C02_hin_ratio.

(* HIN start values: fraction_of_products_of_factorials((n2, N-k), (N, n2-k)) at x = 0 (k < n2),
   fraction_of_products_of_factorials((n1, k), (N, k-n2)) at x = k - n2 (otherwise) *)
Theorem C02_hin_initial_lo : forall n1 n2 k : nat, (k <= n2)%nat ->
  hyper_pmf (n1 + n2) n1 k 0
  = INR (fact n2) * INR (fact (n1 + n2 - k)) / (INR (fact (n1 + n2)) * INR (fact (n2 - k))).
Proof. exact hin_initial_lo. Qed.
Print Assumptions C02_hin_initial_lo.

Theorem C02_hin_initial_hi : forall n1 n2 k : nat, (n2 <= k)%nat -> (k <= n1 + n2)%nat ->
  hyper_pmf (n1 + n2) n1 k (k - n2)
  = INR (fact n1) * INR (fact k) / (INR (fact (n1 + n2)) * INR (fact (k - n2))).
Proof. exact hin_initial_hi. Qed.
Print Assumptions C02_hin_initial_hi.

(* N = 10, K = 7, n = 8: both swaps fire; reduced problem (n1,n2,k) = (3,7,2), result = 5 + x *)
Example C02_ex_hyper :
  hyper_setup 10 7 8 = (3, 7, 2, 1, 5)%Z /\
  (forall x, (0 <= x <= 2)%Z -> (5 <= 5 + 1 * x <= 7)%Z) /\
  hyper_pmf 10 7 8 (Z.to_nat (5 + 1 * Z.of_nat 1)) = hyper_pmf 10 3 2 1 /\
  hyper_pmf (3 + 7) 3 2 (S 0)
  = hyper_pmf (3 + 7) 3 2 0 * ((INR 3 - INR 0) * (INR 2 - INR 0))
      / ((INR 0 + 1) * (INR 7 - INR 2 + 1 + INR 0)).
Proof.
  assert (E : hyper_setup 10 7 8 = (3, 7, 2, 1, 5)%Z) by reflexivity.
  split; [exact E|]. split; [|split].
  - intros x Hx.
    destruct (C02_hyper_reflect_bijection 10 7 8 3 7 2 1 5 ltac:(lia) ltac:(lia) E) as [H _].
    apply (H x). lia.
  - apply (C02_hyper_reflect_pmf 10 7 8 3 7 2 1 5 ltac:(lia) ltac:(lia) E 1%nat). lia.
  - apply C02_hin_recurrence; lia.
Qed.

(* 5. Zeta (zeta.rs:105-115, 124-142) *)

Theorem C02_zeta_accept_def : forall sm1 x,
  zeta_b sm1 = Rpower 2 sm1 /\ zeta_t sm1 x = Rpower (1 + 1 / x) sm1 /\
  zeta_accept sm1 x = zeta_t sm1 x * (zeta_b sm1 - 1) / (x * (zeta_t sm1 x - 1) * zeta_b sm1).
Proof. exact zeta_accept_def. Qed.
Print Assumptions C02_zeta_accept_def.

(* the coded test  v x (t-1) b <= t (b-1)  is  v <= a(x) *)
Theorem C02_zeta_accept_test : forall s x v, 1 < s -> 0 < x ->
  let sm1 := s - 1 in let b := zeta_b sm1 in let t := zeta_t sm1 x in
  (v * x * (t - 1) * b <= t * (b - 1) <-> v <= zeta_accept sm1 x).
Proof. exact zeta_accept_test. Qed.
Print Assumptions C02_zeta_accept_test.

(* floor(u^(-1/(s-1))) = x  iff  (x+1)^-(s-1) < u <= x^-(s-1) *)
Theorem C02_zeta_proposal_event : forall s u x, 1 < s -> 0 < u -> 0 < x ->
  let sm1 := s - 1 in
  (x <= Rpower u (- 1 / sm1) < x + 1 <-> Rpower (x + 1) (- sm1) < u <= Rpower x (- sm1)).
Proof. exact zeta_proposal_event. Qed.
Print Assumptions C02_zeta_proposal_event.

Theorem C02_zeta_proposal_ge_1 : forall s u, 1 < s -> 0 < u <= 1 -> 1 <= Rpower u (- 1 / (s - 1)).
Proof. exact zeta_proposal_ge_1. Qed.
Print Assumptions C02_zeta_proposal_ge_1.

(* proposal mass * acceptance = (b-1)/b * x^-s *)
Theorem C02_zeta_identity : forall s x, 1 < s -> 0 < x ->
  let sm1 := s - 1 in
  (Rpower x (- sm1) - Rpower (x + 1) (- sm1)) * zeta_accept sm1 x
  = (zeta_b sm1 - 1) / zeta_b sm1 * Rpower x (- s).
Proof. exact zeta_identity. Qed.
Print Assumptions C02_zeta_identity.

Theorem C02_zeta_accept_le_1 : forall s x, 1 < s -> 1 <= x -> zeta_accept (s - 1) x <= 1.
Proof. exact zeta_accept_le_1. Qed.
Print Assumptions C02_zeta_accept_le_1.

Theorem C02_zeta_accept_at_1 : forall s, 1 < s -> zeta_accept (s - 1) 1 = 1.
Proof. exact zeta_accept_at_1. Qed.
Print Assumptions C02_zeta_accept_at_1.

Theorem C02_zeta_accept_pos : forall s x, 1 < s -> 0 < x -> 0 < zeta_accept (s - 1) x.
Proof. exact zeta_accept_pos. Qed.
Print Assumptions C02_zeta_accept_pos.

Example C02_ex_zeta :
  (Rpower 3 (- (2 - 1)) - Rpower (3 + 1) (- (2 - 1))) * zeta_accept (2 - 1) 3
  = (zeta_b (2 - 1) - 1) / zeta_b (2 - 1) * Rpower 3 (- 2) /\
  0 < zeta_accept (2 - 1) 3 <= 1.
Proof.
  split; [|split].
  - apply (C02_zeta_identity 2 3); lra.
  - apply C02_zeta_accept_pos; lra.
  - apply C02_zeta_accept_le_1; lra.
Qed.

(* 6. Zipf (zipf.rs:102-166) *)

Theorem C02_zipf_defs : forall n s y,
  zipf_hat s y = (if Rle_dec y 1 then 1 else Rpower y (- s)) /\
  zipf_Hcum_ne1 s y = (if Rle_dec y 1 then y else 1 + (Rpower y (1 - s) - 1) / (1 - s)) /\
  zipf_Hcum_eq1 y = (if Rle_dec y 1 then y else 1 + ln y) /\
  zipf_t_ne1 n s = (Rpower n (1 - s) - s) * (1 / (1 - s)) /\
  zipf_t_eq1 n = 1 + ln n /\
  zipf_inv_ne1 s y = (if Rle_dec y 1 then y else Rpower (y * (1 - s) + s) (1 / (1 - s))) /\
  zipf_inv_eq1 y = (if Rle_dec y 1 then y else exp (y - 1)) /\
  forall x, zipf_ratio s x y = if Rlt_dec 1 x then Rpower x (- s) * Rpower y s else Rpower x (- s).
Proof. exact zipf_defs. Qed.
Print Assumptions C02_zipf_defs.

(* t - 1 = int_1^n y^-s dy : t is the total mass of the hat (1 on [0,1], y^-s on [1,n]) *)
Theorem C02_zipf_hat_mass_ne1 : forall n s, s <> 1 -> 1 <= n ->
  is_RInt (fun y => Rpower y (- s)) 1 n (zipf_t_ne1 n s - 1).
Proof. exact zipf_hat_mass_ne1. Qed.
Print Assumptions C02_zipf_hat_mass_ne1.

Theorem C02_zipf_hat_mass_eq1 : forall n, 1 <= n ->
  is_RInt (fun y => Rpower y (- (1))) 1 n (zipf_t_eq1 n - 1).
Proof. exact zipf_hat_mass_eq1. Qed.
Print Assumptions C02_zipf_hat_mass_eq1.

Theorem C02_zipf_Hcum_integral_ne1 : forall s y, s <> 1 -> 1 < y ->
  is_RInt (fun z => Rpower z (- s)) 1 y (zipf_Hcum_ne1 s y - 1).
Proof. exact zipf_Hcum_integral_ne1. Qed.
Print Assumptions C02_zipf_Hcum_integral_ne1.

(* inv_cdf inverts the cumulative hat *)
Theorem C02_zipf_inv_cdf_low : forall s pt, pt <= 1 ->
  zipf_inv_ne1 s pt = pt /\ zipf_inv_eq1 pt = pt /\
  zipf_Hcum_ne1 s pt = pt /\ zipf_Hcum_eq1 pt = pt.
Proof. exact zipf_inv_cdf_low. Qed.
Print Assumptions C02_zipf_inv_cdf_low.

Theorem C02_zipf_inv_base_pos : forall n s pt, s <> 1 -> 0 <= s -> 1 <= n ->
  1 < pt <= zipf_t_ne1 n s -> 0 < pt * (1 - s) + s.
Proof. exact zipf_inv_base_pos. Qed.
Print Assumptions C02_zipf_inv_base_pos.

Theorem C02_zipf_inv_cdf_ne1 : forall s pt, s <> 1 -> 1 < pt -> 0 < pt * (1 - s) + s ->
  1 < zipf_inv_ne1 s pt /\ zipf_Hcum_ne1 s (zipf_inv_ne1 s pt) = pt.
Proof. exact zipf_inv_cdf_ne1. Qed.
Print Assumptions C02_zipf_inv_cdf_ne1.

Theorem C02_zipf_inv_le_n_ne1 : forall n s pt, s <> 1 -> 0 <= s -> 1 <= n ->
  1 < pt <= zipf_t_ne1 n s -> zipf_inv_ne1 s pt <= n.
Proof. exact zipf_inv_le_n_ne1. Qed.
Print Assumptions C02_zipf_inv_le_n_ne1.

Theorem C02_zipf_inv_cdf_eq1 : forall pt, 1 < pt ->
  1 < zipf_inv_eq1 pt /\ zipf_Hcum_eq1 (zipf_inv_eq1 pt) = pt.
Proof. exact zipf_inv_cdf_eq1. Qed.
Print Assumptions C02_zipf_inv_cdf_eq1.

Theorem C02_zipf_inv_le_n_eq1 : forall n pt, 1 <= n -> 1 < pt <= zipf_t_eq1 n ->
  zipf_inv_eq1 pt <= n.
Proof. exact zipf_inv_le_n_eq1. Qed.
Print Assumptions C02_zipf_inv_le_n_eq1.

(* on [k-1, k) (where floor(y+1) = k): hat(y) * ratio = k^-s, and ratio is a probability *)
Theorem C02_zipf_accept_identity : forall s (k : nat) y,
  (1 <= k)%nat -> INR k - 1 <= y < INR k ->
  zipf_hat s y * zipf_ratio s (INR k) y = Rpower (INR k) (- s).
Proof. exact zipf_accept_identity. Qed.
Print Assumptions C02_zipf_accept_identity.

Theorem C02_zipf_ratio_range : forall s (k : nat) y,
  0 <= s -> (1 <= k)%nat -> INR k - 1 <= y < INR k -> 0 < zipf_ratio s (INR k) y <= 1.
Proof. exact zipf_ratio_range. Qed.
Print Assumptions C02_zipf_ratio_range.

(* accepted mass of k (before dividing by t) is k^-s *)
Theorem C02_zipf_accept_mass : forall s (k : nat), (1 <= k)%nat ->
  is_RInt (fun y => zipf_hat s y * zipf_ratio s (INR k) y) (INR k - 1) (INR k)
          (Rpower (INR k) (- s)).
Proof. exact zipf_accept_mass. Qed.
Print Assumptions C02_zipf_accept_mass.

Example C02_ex_zipf :
  is_RInt (fun y => Rpower y (- 2)) 1 10 (zipf_t_ne1 10 2 - 1) /\
  is_RInt (fun y => zipf_hat 2 y * zipf_ratio 2 (INR 3) y) (INR 3 - 1) (INR 3) (Rpower (INR 3) (- 2)) /\
  0 < zipf_ratio 2 (INR 3) (5/2) <= 1.
Proof.
  split; [|split].
  - apply C02_zipf_hat_mass_ne1; lra.
  - apply C02_zipf_accept_mass. lia.
  - apply C02_zipf_ratio_range; [lra|lia|simpl; lra].
Qed.

(* 7. Poisson: Knuth's method (poisson.rs:193-201) *)

Theorem C02_lprod_def : lprod [] = 1 /\ forall u l, lprod (u :: l) = u * lprod l.
Proof. exact lprod_def. Qed.
Print Assumptions C02_lprod_def.

Theorem C02_knuth_loop_def : forall e p us k,
  knuth_loop e p us k =
  if Rlt_dec e p then
    match us with [] => None | u :: us' => knuth_loop e (p * u) us' (S k) end
  else Some k.
Proof. exact knuth_loop_def. Qed.
Print Assumptions C02_knuth_loop_def.

Theorem C02_knuth_def : forall e,
  knuth e [] = None /\ forall u0 us, knuth e (u0 :: us) = knuth_loop e u0 us 0.
Proof. exact knuth_def. Qed.
Print Assumptions C02_knuth_def.

Theorem C02_count_above_def : forall e us,
  count_above e us =
  length (filter (fun j => if Rlt_dec e (lprod (firstn j us)) then true else false)
                 (seq 1 (length us))).
Proof. exact count_above_def. Qed.
Print Assumptions C02_count_above_def.

(* no assumption on the uniforms *)
Theorem C02_knuth_spec : forall e us k,
  knuth e us = Some k <->
  (S k <= length us)%nat /\
  (forall j, (1 <= j <= k)%nat -> e < lprod (firstn j us)) /\
  lprod (firstn (S k) us) <= e.
Proof. exact knuth_spec. Qed.
Print Assumptions C02_knuth_spec.

(* k is returned iff  u0...u(k-1) > e  and  u0...uk <= e *)
Theorem C02_knuth_form : forall e us k, e < 1 -> Forall (fun u => 0 <= u <= 1) us ->
  (knuth e us = Some k <->
   (S k <= length us)%nat /\ e < lprod (firstn k us) /\ lprod (firstn (S k) us) <= e).
Proof. exact knuth_form. Qed.
Print Assumptions C02_knuth_form.

(* the returned count is the number of partial products exceeding e *)
Theorem C02_knuth_count : forall e us k, Forall (fun u => 0 <= u <= 1) us ->
  knuth e us = Some k -> count_above e us = k.
Proof. exact knuth_count. Qed.
Print Assumptions C02_knuth_count.

Example C02_ex_knuth : knuth (1/2) [9/10; 8/10; 5/10; 3/10] = Some 2%nat.
Proof.
  apply C02_knuth_form.
  - lra.
  - repeat constructor; lra.
  - simpl. repeat split; try lia; lra.
Qed.
