(* Props/C07.v — property C07: location and scale parameters act as exact affine maps on a fixed
   random stream, and the same RNG words are consumed.  Statements only; proofs in
   Proofs/Equivariance.v.

   Vocabulary (Proofs/Equivariance.v):
     rmap f r       the decision tree r with f applied to every leaf
     smap f m ws    = rmap (fun '(a, rest) => (f a, rest)) (m ws): same decisions, same words read,
                      same failures (also on word lists that are too short), leaf (a, rest) -> (f a, rest)
     req r1 r2      equality of trees, pointwise on the continuations of the Ask nodes (no axiom);
                    seq m1 m2 := forall ws, req (m1 ws) (m2 ws)
     <D>_std, gamma_core, skew_normal_std   the sampler's code without its location/scale
   Parts: (1) tree statements  (2) their meaning for the exact semantics `evals`
          (3) semantic corollaries on real values  (4) InverseGaussian, Triangular, Pert (semantic only).   *)
From Coq Require Import Reals ZArith List Lra.
From Interval Require Import Xreal.
From RD Require Import Base.Expr Base.Run Model.Sampler Model.Continuous Proofs.LawsInvCdf Proofs.LawsTriangular
  Proofs.Equivariance.
Import ListNotations.
Open Scope Z_scope.

(* (1) trees *)
(* Normal: mean + std_dev * z  (z the StandardNormal variate of the same stream) *)
Theorem C07_normal_tree : forall t mean sd ws,
  normal t mean sd ws = smap (fun z => Bin Add (dyx mean) (Bin Mul (dyx sd) z)) (std_normal t) ws.
Proof. exact normal_smap. Qed.
Theorem C07_normal_tree_req : forall t mean sd,
  seq (normal t mean sd) (smap (normal_from_zscore mean sd) (std_normal t)).
Proof. exact normal_smap_req. Qed.
(* the model of Normal::from_zscore / LogNormal::from_zscore IS the leaf expression *)
Theorem C07_normal_from_zscore : forall mean sd z,
  normal_from_zscore mean sd z = Bin Add (dyx mean) (Bin Mul (dyx sd) z) /\
  evalX (normal_from_zscore mean sd z) = Xadd (xdy (fst mean) (snd mean)) (Xmul (xdy (fst sd) (snd sd)) (evalX z)) /\
  evalX (normal_from_zscore mean sd z) = Xadd (Xreal (dyR mean)) (Xmul (Xreal (dyR sd)) (evalX z)).
Proof. exact normal_from_zscore_spec. Qed.
Theorem C07_lognormal_from_zscore : forall mu sigma z,
  lognormal_from_zscore mu sigma z = Un Exp (Bin Add (dyx mu) (Bin Mul (dyx sigma) z)) /\
  evalX (lognormal_from_zscore mu sigma z) = Xexp (Xadd (Xreal (dyR mu)) (Xmul (Xreal (dyR sigma)) (evalX z))).
Proof. exact lognormal_from_zscore_spec. Qed.

(* LogNormal: exp (mu + sigma * z); = exp of the Normal sample on the same stream *)
Theorem C07_lognormal_tree : forall t mu sigma ws,
  lognormal t mu sigma ws = smap (fun z => Un Exp (Bin Add (dyx mu) (Bin Mul (dyx sigma) z))) (std_normal t) ws.
Proof. exact lognormal_smap. Qed.
Theorem C07_lognormal_tree_req : forall t mu sigma,
  seq (lognormal t mu sigma) (smap (lognormal_from_zscore mu sigma) (std_normal t)).
Proof. exact lognormal_smap_req. Qed.
Theorem C07_lognormal_is_exp_normal : forall t mu sigma ws,
  lognormal t mu sigma ws = smap (Un Exp) (normal t mu sigma) ws.
Proof. exact lognormal_normal. Qed.
Theorem C07_lognormal_is_exp_normal_req : forall t mu sigma,
  seq (lognormal t mu sigma) (smap (Un Exp) (normal t mu sigma)).
Proof. exact lognormal_normal_req. Qed.

(* Exp(lambda): z * (1/lambda), z the Exp1 variate *)
Theorem C07_exp_tree : forall t lambda ws,
  exp_lambda t lambda ws = smap (fun z => Bin Mul z (Bin Div one (dyx lambda))) (exp1 t) ws.
Proof. exact exp_lambda_smap. Qed.
Theorem C07_exp_tree_req : forall t lambda, seq (exp_lambda t lambda) (smap (exp_scale lambda) (exp1 t)).
Proof. exact exp_lambda_smap_req. Qed.

(* single-draw families: by computation, no axiom *)
Theorem C07_cauchy_tree : forall t median scale ws,
  cauchy t median scale ws = smap (fun c => Bin Add (dyx median) (Bin Mul (dyx scale) c)) (cauchy_std t) ws.
Proof. exact cauchy_smap. Qed.
Theorem C07_gumbel_tree : forall t loc scale ws,
  gumbel t loc scale ws = smap (fun g => Bin Sub (dyx loc) (Bin Mul (dyx scale) g)) (gumbel_std t) ws.
Proof. exact gumbel_smap. Qed.
Theorem C07_frechet_tree : forall t loc scale shape ws,
  frechet t loc scale shape ws = smap (fun g => Bin Add (dyx loc) (Bin Mul (dyx scale) g)) (frechet_std t shape) ws.
Proof. exact frechet_smap. Qed.
Theorem C07_pareto_tree : forall t scale shape ws,
  pareto t scale shape ws = smap (fun h => Bin Mul (dyx scale) h) (pareto_std t shape) ws.
Proof. exact pareto_smap. Qed.
Theorem C07_weibull_tree : forall t scale shape ws,
  weibull t scale shape ws = smap (fun h => Bin Mul (dyx scale) h) (weibull_std t shape) ws.
Proof. exact weibull_smap. Qed.
(* the standard samplers do not mention location or scale: they are these *)
Theorem C07_std_samplers : forall t shape,
  cauchy_std t = sbind (draw_std t) (fun x => sret (etan (Bin Mul Pi x))) /\
  gumbel_std t = sbind (draw_oc t) (fun x => sret (eln (eneg (eln x)))) /\
  frechet_std t shape = sbind (draw_oc t) (fun x => sret (epow (eneg (eln x)) (eneg (Bin Div one (dyx shape))))) /\
  pareto_std t shape = sbind (draw_oc t) (fun u => sret (epow u (Bin Div (num (-1)) (dyx shape)))) /\
  weibull_std t shape = sbind (draw_oc t) (fun x => sret (epow (eneg (eln x)) (Bin Div one (dyx shape)))).
Proof. exact std_samplers_spec. Qed.

(* SkewNormal: x * scale + loc, x the sample of the same code without the final linear map *)
Theorem C07_skew_normal_tree : forall t loc scale shape ws,
  skew_normal t loc scale shape ws =
  smap (fun x => Bin Add (Bin Mul x (dyx scale)) (dyx loc)) (skew_normal_std t shape) ws.
Proof. exact skew_normal_smap. Qed.
Theorem C07_skew_normal_tree_req : forall t loc scale shape,
  seq (skew_normal t loc scale shape) (smap (affine_r loc scale) (skew_normal_std t shape)).
Proof. exact skew_normal_smap_req. Qed.

(* Gamma, all three representations: the scale enters only in the final multiplication *)
Theorem C07_gamma_tree : forall t shape scale ws,
  gamma t shape scale ws = smap (gamma_scale shape scale) (gamma_core t shape) ws.
Proof. exact gamma_smap. Qed.
Theorem C07_gamma_tree_req : forall t shape scale,
  seq (gamma t shape scale) (smap (gamma_scale shape scale) (gamma_core t shape)).
Proof. exact gamma_smap_req. Qed.
Theorem C07_gamma_scale_map : forall shape scale v,
  gamma_scale shape scale v =
  if dy_eqb shape (1, 0) then Bin Mul v (Bin Div one (Bin Div one (dyx scale)))
  else if dy_ltb shape (1, 0) then Bin Mul v (dyx scale)
  else Bin Mul v (Bin Mul (Bin Sub (dyx shape) (rat 1 3)) (dyx scale)).
Proof. exact gamma_scale_spec. Qed.

(* (2) what a tree statement means for the exact semantics *)
Theorem C07_req_evals : forall A (r1 r2 : run A) v, req r1 r2 -> (evals r1 v <-> evals r2 v).
Proof. exact @req_evals_iff. Qed.
Theorem C07_req_is_eq : forall A (r1 r2 : run A), req r1 r2 <-> r1 = r2.
Proof. exact @req_iff_eq. Qed.
Theorem C07_smap_evals : forall A B (f : A -> B) (m : sampler A) ws b rest,
  evals (smap f m ws) (b, rest) <-> exists a, evals (m ws) (a, rest) /\ b = f a.
Proof. exact @smap_evals. Qed.
Theorem C07_smap_commutes_sbind : forall A B C (f : B -> C) (m : sampler A) (k : A -> sampler B),
  seq (smap f (sbind m k)) (sbind m (fun x => smap f (k x))).
Proof. exact @smap_sbind. Qed.

(* (3) real values: sample = affine map of the standard sample, same remaining words *)
Open Scope R_scope.

Theorem C07_normal_affine : forall t ws rest y mean sd,
  (exists e, evals (normal t mean sd ws) (e, rest) /\ evalX e = Xreal y) <->
  (exists z x, evals (std_normal t ws) (z, rest) /\ evalX z = Xreal x /\ y = dyR mean + dyR sd * x).
Proof. exact normal_affine. Qed.
Theorem C07_lognormal_affine : forall t ws rest y mu sigma,
  (exists e, evals (lognormal t mu sigma ws) (e, rest) /\ evalX e = Xreal y) <->
  (exists z x, evals (std_normal t ws) (z, rest) /\ evalX z = Xreal x /\ y = exp (dyR mu + dyR sigma * x)).
Proof. exact lognormal_affine. Qed.
Theorem C07_exp_scale : forall t ws rest y lambda, dyR lambda <> 0 ->
  (exists e, evals (exp_lambda t lambda ws) (e, rest) /\ evalX e = Xreal y) <->
  (exists z x, evals (exp1 t ws) (z, rest) /\ evalX z = Xreal x /\ y = x * (1 / dyR lambda)).
Proof. exact exp_lambda_scale. Qed.
Theorem C07_cauchy_affine : forall t ws rest y median scale,
  (exists e, evals (cauchy t median scale ws) (e, rest) /\ evalX e = Xreal y) <->
  (exists z x, evals (cauchy_std t ws) (z, rest) /\ evalX z = Xreal x /\ y = dyR median + dyR scale * x).
Proof. exact cauchy_affine. Qed.
Theorem C07_gumbel_affine : forall t ws rest y loc scale,
  (exists e, evals (gumbel t loc scale ws) (e, rest) /\ evalX e = Xreal y) <->
  (exists z x, evals (gumbel_std t ws) (z, rest) /\ evalX z = Xreal x /\ y = dyR loc - dyR scale * x).
Proof. exact gumbel_affine. Qed.
Theorem C07_frechet_affine : forall t ws rest y loc scale shape,
  (exists e, evals (frechet t loc scale shape ws) (e, rest) /\ evalX e = Xreal y) <->
  (exists z x, evals (frechet_std t shape ws) (z, rest) /\ evalX z = Xreal x /\ y = dyR loc + dyR scale * x).
Proof. exact frechet_affine. Qed.
Theorem C07_pareto_scale : forall t ws rest y scale shape,
  (exists e, evals (pareto t scale shape ws) (e, rest) /\ evalX e = Xreal y) <->
  (exists z x, evals (pareto_std t shape ws) (z, rest) /\ evalX z = Xreal x /\ y = dyR scale * x).
Proof. exact pareto_scale. Qed.
Theorem C07_weibull_scale : forall t ws rest y scale shape,
  (exists e, evals (weibull t scale shape ws) (e, rest) /\ evalX e = Xreal y) <->
  (exists z x, evals (weibull_std t shape ws) (z, rest) /\ evalX z = Xreal x /\ y = dyR scale * x).
Proof. exact weibull_scale. Qed.
Theorem C07_skew_normal_affine : forall t ws rest y loc scale shape,
  (exists e, evals (skew_normal t loc scale shape ws) (e, rest) /\ evalX e = Xreal y) <->
  (exists z x, evals (skew_normal_std t shape ws) (z, rest) /\ evalX z = Xreal x /\ y = x * dyR scale + dyR loc).
Proof. exact skew_normal_affine. Qed.
(* gamma_fac shape = 1 for shape <= 1 and shape - 1/3 otherwise (the precomputed d of Marsaglia-Tsang) *)
Theorem C07_gamma_scale : forall t ws rest y shape scale, dyR scale <> 0 ->
  (exists e, evals (gamma t shape scale ws) (e, rest) /\ evalX e = Xreal y) <->
  (exists z x, evals (gamma_core t shape ws) (z, rest) /\ evalX z = Xreal x /\
               y = x * (gamma_fac shape * dyR scale)).
Proof. exact gamma_scale_sem. Qed.
Theorem C07_gamma_fac : forall shape,
  gamma_fac shape = if dy_eqb shape (1, 0)%Z then 1 else if dy_ltb shape (1, 0)%Z then 1 else dyR shape - 1 / 3.
Proof. exact gamma_fac_spec. Qed.

(* (4) semantic only: the expressions inside the decisions change *)
(* InverseGaussian: (mean, shape) -> (c mean, c shape) multiplies the sample by c; dy_mul is the exact
   product of dyadics *)
Theorem C07_dy_mul : forall c q, dyR (dy_mul c q) = dyR c * dyR q.
Proof. exact dyR_mul. Qed.
Theorem C07_inverse_gaussian_scale : forall t c mean shape ws rest y, 0 < dyR c ->
  (exists e, evals (inverse_gaussian t mean shape ws) (e, rest) /\ evalX e = Xreal y) <->
  (exists e', evals (inverse_gaussian t (dy_mul c mean) (dy_mul c shape) ws) (e', rest) /\
              evalX e' = Xreal (dyR c * y)).
Proof. exact inverse_gaussian_scale. Qed.
(* Triangular: x -> a + b x on (min, max, mode), b > 0 *)
Theorem C07_triangular_affine : forall t mn mx mode mn' mx' mode' a b ws rest y, 0 < b ->
  dyR mn' = a + b * dyR mn -> dyR mx' = a + b * dyR mx -> dyR mode' = a + b * dyR mode ->
  (exists e, evals (triangular t mn mx mode ws) (e, rest) /\ evalX e = Xreal y) ->
  (exists e', evals (triangular t mn' mx' mode' ws) (e', rest) /\ evalX e' = Xreal (a + b * y)).
Proof. exact triangular_affine. Qed.
(* Pert: the same map; the Beta parameters keep their real values, every decision of the Beta sampler
   compares the same two real numbers (tree simulation rsim), the same words are consumed *)
Theorem C07_pert_affine : forall mn mx mode mn' mx' mode' shape a b, 0 < b ->
  dyR mn' = a + b * dyR mn -> dyR mx' = a + b * dyR mx -> dyR mode' = a + b * dyR mode ->
  forall t ws rest y,
  (exists e, evals (pert t mn mx mode shape ws) (e, rest) /\ evalX e = Xreal y) ->
  (exists e', evals (pert t mn' mx' mode' shape ws) (e', rest) /\ evalX e' = Xreal (a + b * y)).
Proof. exact pert_affine. Qed.
Theorem C07_rsim_evals : forall A (R : A -> A -> Prop) r r' v,
  rsim R r r' -> evals r v -> exists v', evals r' v' /\ R v v'.
Proof. exact @rsim_evals. Qed.

(* examples: the statements instantiated at concrete dyadics and words *)
(* one word: the leaf of Cauchy(1, 2) is 1 + 2 * tan(pi * u), that of the standard sampler tan(pi * u) *)
Example C07_ex_cauchy :
  cauchy F64 (1, 0)%Z (2, 0)%Z [2 ^ 63]%Z =
    Ret (Bin Add (Dy 1 0) (Bin Mul (Dy 2 0) (Un Tan (Bin Mul Pi (Exact (Dy (2 ^ 52) (-53)))))), []) /\
  cauchy_std F64 [2 ^ 63]%Z = Ret (Un Tan (Bin Mul Pi (Exact (Dy (2 ^ 52) (-53)))), []) /\
  smap (fun c => Bin Add (Dy 1 0) (Bin Mul (Dy 2 0) c)) (cauchy_std F64) [2 ^ 63]%Z = cauchy F64 (1, 0)%Z (2, 0)%Z [2 ^ 63]%Z.
Proof. repeat split. Qed.
(* no word: both fail with the same code *)
Example C07_ex_short :
  cauchy F32 (1, 0)%Z (2, 0)%Z [] = Fail 1 /\ smap (fun c => Bin Add (Dy 1 0) (Bin Mul (Dy 2 0) c)) (cauchy_std F32) [] = Fail 1 /\
  normal F64 (1, 0)%Z (2, 0)%Z [] = Fail 1 /\ smap (normal_from_zscore (1, 0)%Z (2, 0)%Z) (std_normal F64) [] = Fail 1 /\
  gamma F64 (1, -1)%Z (3, 0)%Z [] = Fail 1 /\ smap (gamma_scale (1, -1)%Z (3, 0)%Z) (gamma_core F64 (1, -1)%Z) [] = Fail 1.
Proof. repeat split; vm_compute; reflexivity. Qed.
(* rmap on an explicit tree *)
Example C07_ex_rmap :
  req (rmap (fun z => Bin Add (Dy 1 0) (Bin Mul (Dy 2 0) z))
            (Ask CLt (Dy 1 0) (Dy 2 0) (fun b => if b then Ret (Dy 3 0) else Fail 2)))
      (Ask CLt (Dy 1 0) (Dy 2 0)
           (fun b => if b then Ret (Bin Add (Dy 1 0) (Bin Mul (Dy 2 0) (Dy 3 0))) else Fail 2)).
Proof. cbn. constructor. intros [|]; constructor. Qed.
(* the hypotheses of the semantic statements are satisfiable: the standard Cauchy sampler on the word 0
   yields tan(pi * 0) = 0, so Cauchy(1, 2) yields 1 + 2 * 0 having consumed the same word *)
Example C07_ex_cauchy_sem :
  (exists z x, evals (cauchy_std F64 [0%Z; 7%Z]) (z, [7%Z]) /\ evalX z = Xreal x /\ 1 = dyR (1, 0)%Z + dyR (2, 0)%Z * x) /\
  (exists e, evals (cauchy F64 (1, 0)%Z (2, 0)%Z [0%Z; 7%Z]) (e, [7%Z]) /\ evalX e = Xreal 1).
Proof.
  assert (exists z x, evals (cauchy_std F64 [0%Z; 7%Z]) (z, [7%Z]) /\ evalX z = Xreal x /\
                      1 = dyR (1, 0)%Z + dyR (2, 0)%Z * x) as H.
  { exists (Un Tan (Bin Mul Pi (Exact (Dy 0 (-53))))), 0. split; [constructor|]. split.
    - cbn [evalX xun xbin]. rewrite xdy_real. change (0 / 2 ^ 11)%Z with 0%Z.
      replace (IZR 0 * powerRZ 2 (-53)) with 0 by (simpl; ring). cbn [Xmul]. rewrite Rmult_0_r.
      rewrite Xtan_ok by (rewrite cos_0; apply R1_neq_R0). now rewrite tan_0.
    - unfold dyR. simpl. ring. }
  split; [exact H|]. apply C07_cauchy_affine. exact H.
Qed.
Example C07_ex_hyps : dyR (1, -1)%Z <> 0 /\ 0 < dyR (3, 1)%Z /\ dy_mul (3, 1)%Z (5, -2)%Z = (15, -1)%Z /\
  dyR (1, 0)%Z = 1 + 2 * dyR (0, 0)%Z /\ dyR (9, 0)%Z = 1 + 2 * dyR (4, 0)%Z /\ dyR (3, 0)%Z = 1 + 2 * dyR (1, 0)%Z.
Proof. unfold dyR. simpl. repeat split; try lra. Qed.

Print Assumptions C07_normal_tree.
Print Assumptions C07_normal_tree_req.
Print Assumptions C07_normal_from_zscore.
Print Assumptions C07_lognormal_from_zscore.
Print Assumptions C07_lognormal_tree.
Print Assumptions C07_lognormal_tree_req.
Print Assumptions C07_lognormal_is_exp_normal.
Print Assumptions C07_lognormal_is_exp_normal_req.
Print Assumptions C07_exp_tree.
Print Assumptions C07_exp_tree_req.
Print Assumptions C07_cauchy_tree.
Print Assumptions C07_gumbel_tree.
Print Assumptions C07_frechet_tree.
Print Assumptions C07_pareto_tree.
Print Assumptions C07_weibull_tree.
Print Assumptions C07_std_samplers.
Print Assumptions C07_skew_normal_tree.
Print Assumptions C07_skew_normal_tree_req.
Print Assumptions C07_gamma_tree.
Print Assumptions C07_gamma_tree_req.
Print Assumptions C07_gamma_scale_map.
Print Assumptions C07_req_evals.
Print Assumptions C07_req_is_eq.
Print Assumptions C07_smap_evals.
Print Assumptions C07_smap_commutes_sbind.
Print Assumptions C07_normal_affine.
Print Assumptions C07_lognormal_affine.
Print Assumptions C07_exp_scale.
Print Assumptions C07_cauchy_affine.
Print Assumptions C07_gumbel_affine.
Print Assumptions C07_frechet_affine.
Print Assumptions C07_pareto_scale.
Print Assumptions C07_weibull_scale.
Print Assumptions C07_skew_normal_affine.
Print Assumptions C07_gamma_scale.
Print Assumptions C07_gamma_fac.
Print Assumptions C07_dy_mul.
Print Assumptions C07_inverse_gaussian_scale.
Print Assumptions C07_triangular_affine.
Print Assumptions C07_pert_affine.
Print Assumptions C07_rsim_evals.
