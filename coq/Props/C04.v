(* Props/C04.v — every public constructor returns Err precisely when a documented error condition
   holds (with a variant whose documented condition is true), Ok otherwise, and never panics.
   Statements only; the proofs live in Proofs/Guard*.v.

   Vocabulary (all in Model/):
     Guards.<Ctor>_new ...        executable model of the constructor's validation logic
     GuardSpec.spec_<Ctor>_new    documented domain: MustOk | MustErr allowed | Unspecified
     GuardSpec.agrees r e         GOk agrees MustOk; GErr v agrees MustErr l when In v l; anything but
                                  GPanic agrees Unspecified; GPanic agrees with nothing
     GuardSpec.ext, ge1           value of a non-NaN float as an extended real / "x >= 1 or +inf"
                                  (only used to state the contracts on the libm parameters)
     GuardSpec.LN_known, hyper_known, is_u64   explicit decidable classes of KNOWN DEFECTS

   Theorems without suffix hold for every binary format (prec, emax), in particular binary32
   (24,128) and binary64 (53,1024); ...64 / ...32 are stated for the instance used by
   ctor64 / ctor32 (their proofs instantiate a format-generic theorem whose hypotheses are facts
   about literal constants, discharged by computation).                                          *)
From Coq Require Import ZArith List Bool String Reals.
From Flocq Require Import Core.Core IEEE754.Binary IEEE754.Bits IEEE754.BinarySingleNaN.
From RD Require Import Model.Guards Model.GuardSpec.
From RD Require Proofs.GuardProofs Proofs.GuardProofs2 Proofs.GuardProofs3 Proofs.GuardProofs4
                Proofs.GuardProofs5 Proofs.GuardProofs6 Proofs.GuardProofs7.
Import ListNotations.
Open Scope string_scope.
Open Scope Z_scope.

(* non-vacuity: the models and the specification evaluate *)
(* f64: 1.0 = 4607182418800017408, 2.0 = 4611686018427387904, NaN = 9221120237041090560 *)
Example C04_ex_Gamma_ok : ctor64 "Gamma::new" [4607182418800017408; 4611686018427387904] = Some GOk.
Proof. vm_compute. reflexivity. Qed.
Example C04_ex_Gamma_nan :
  ctor64 "Gamma::new" [9221120237041090560; 4607182418800017408] = Some (GErr "ShapeTooSmall").
Proof. vm_compute. reflexivity. Qed.
Example C04_ex_Gamma32_ok : ctor32 "Gamma::new" [1065353216; 1073741824] = Some GOk.
Proof. vm_compute. reflexivity. Qed.
(* the smallest subnormal is rejected by ChiSquared::new, as documented (0.5 * k <= 0) *)
Example C04_ex_ChiSquared_subnormal : ctor64 "ChiSquared::new" [1] = Some (GErr "DoFTooSmall").
Proof. vm_compute. reflexivity. Qed.
Example C04_ex_Poisson_max :
  ctor64 "Poisson::new" [4895409501946988160] = Some GOk /\
  ctor64 "Poisson::new" [4895409501946988161] = Some (GErr "ShapeTooLarge").
Proof. split; vm_compute; reflexivity. Qed.
Example C04_ex_Dirichlet :
  ctor64 "Dirichlet::new" [4607182418800017408; 4607182418800017408; 4611686018427387904] = Some GOk /\
  ctor64 "Dirichlet::new" [4607182418800017408; 1] = Some (GErr "AlphaSubnormal") /\
  ctor64 "Dirichlet::new" [4607182418800017408] = Some (GErr "AlphaTooShort").
Proof. repeat split; vm_compute; reflexivity. Qed.
Example C04_ex_Binomial : ctor64 "Binomial::new" [18446744073709551615; 4602678819172646912] = Some GOk.
Proof. vm_compute. reflexivity. Qed.
Example C04_ex_unknown : ctor64 "Nope::new" [0] = None.
Proof. vm_compute. reflexivity. Qed.
(* KNOWN DEFECTS reproduced by the model (debug-build semantics) *)
Example C04_ex_Hypergeometric_panics :
  ctor64 "Hypergeometric::new" [18446744073709551615; 18446744073709551615; 18446744073709551615] = Some GPanic /\
  ctor64 "Hypergeometric::new" [18446744073709551615; 18446744073709551614; 9223372036854775808] = Some GPanic /\
  ctor64 "Hypergeometric::new" [18446744073709551615; 5; 5] = Some GOk.
Proof. repeat split; vm_compute; reflexivity. Qed.
(* LogNormal::from_mean_cv(1.0, 1e200): documented Ok, Err(BadVariance) returned *)
Example C04_ex_LogNormal_cv_overflow :
  ctor64 "LogNormal::from_mean_cv" [4607182418800017408; 7598807758576447066] = Some (GErr "BadVariance") /\
  spec_LogNormal_from_mean_cv 53 1024 (dec64 4607182418800017408) (dec64 7598807758576447066) = MustOk.
Proof. split; vm_compute; reflexivity. Qed.
(* the specification is executable too *)
Example C04_ex_spec :
  spec_Gamma_new 53 1024 (dec64 9221120237041090560) (dec64 4607182418800017408) = MustErr ["ShapeTooSmall"] /\
  agreesb (GErr "ShapeTooSmall") (MustErr ["ShapeTooSmall"]) = true /\
  agreesb GPanic Unspecified = false.
Proof. repeat split; vm_compute; reflexivity. Qed.

Print Assumptions C04_ex_Gamma_ok.

(* validation by comparisons / classification only: every format *)
Theorem C04_Normal_new_sound :
  forall (prec emax : Z) (Hp : Prec_gt_0 prec) (Hpe : Prec_lt_emax prec emax)
         (mean std_dev : binary_float prec emax),
  agrees (Normal_new prec emax mean std_dev) (spec_Normal_new prec emax mean std_dev).
Proof. intros prec emax _ _. exact (GuardProofs.Normal_new_sound prec emax). Qed.
Print Assumptions C04_Normal_new_sound.

Theorem C04_Normal_from_mean_cv_sound :
  forall (prec emax : Z) (Hp : Prec_gt_0 prec) (Hpe : Prec_lt_emax prec emax)
         (mean cv : binary_float prec emax),
  agrees (Normal_from_mean_cv prec emax mean cv) (spec_Normal_from_mean_cv prec emax mean cv).
Proof. intros prec emax _ _. exact (GuardProofs.Normal_from_mean_cv_sound prec emax). Qed.
Print Assumptions C04_Normal_from_mean_cv_sound.

Theorem C04_LogNormal_new_sound :
  forall (prec emax : Z) (Hp : Prec_gt_0 prec) (Hpe : Prec_lt_emax prec emax)
         (mu sigma : binary_float prec emax),
  agrees (LogNormal_new prec emax mu sigma) (spec_LogNormal_new prec emax mu sigma).
Proof. intros prec emax _ _. exact (GuardProofs.LogNormal_new_sound prec emax). Qed.
Print Assumptions C04_LogNormal_new_sound.

Theorem C04_Exp_new_sound :
  forall (prec emax : Z) (lambda : binary_float prec emax),
  agrees (Exp_new prec emax lambda) (spec_Exp_new prec emax lambda).
Proof. exact GuardProofs.Exp_new_sound. Qed.
Print Assumptions C04_Exp_new_sound.

(* includes: the two `Exp::new(..).unwrap()` inside Gamma::new never panic *)
Theorem C04_Gamma_new_sound :
  forall (prec emax : Z) (Hp : Prec_gt_0 prec) (Hpe : Prec_lt_emax prec emax)
         (shape scale : binary_float prec emax),
  agrees (Gamma_new prec emax Hp Hpe shape scale) (spec_Gamma_new prec emax shape scale).
Proof. exact GuardProofs.Gamma_new_sound. Qed.
Print Assumptions C04_Gamma_new_sound.

Theorem C04_Beta_new_sound :
  forall (prec emax : Z) (Hp : Prec_gt_0 prec) (Hpe : Prec_lt_emax prec emax)
         (alpha beta : binary_float prec emax),
  agrees (Beta_new prec emax alpha beta) (spec_Beta_new prec emax alpha beta).
Proof. intros prec emax _ _. exact (GuardProofs.Beta_new_sound prec emax). Qed.
Print Assumptions C04_Beta_new_sound.

Theorem C04_Triangular_new_sound :
  forall (prec emax : Z) (Hp : Prec_gt_0 prec) (Hpe : Prec_lt_emax prec emax)
         (min max mode : binary_float prec emax),
  agrees (Triangular_new prec emax min max mode) (spec_Triangular_new prec emax min max mode).
Proof. intros prec emax _ _. exact (GuardProofs.Triangular_new_sound prec emax). Qed.
Print Assumptions C04_Triangular_new_sound.

Theorem C04_Cauchy_new_sound :
  forall (prec emax : Z) (Hp : Prec_gt_0 prec) (Hpe : Prec_lt_emax prec emax)
         (median scale : binary_float prec emax),
  agrees (Cauchy_new prec emax median scale) (spec_Cauchy_new prec emax median scale).
Proof. intros prec emax _ _. exact (GuardProofs.Cauchy_new_sound prec emax). Qed.
Print Assumptions C04_Cauchy_new_sound.

Theorem C04_Pareto_new_sound :
  forall (prec emax : Z) (Hp : Prec_gt_0 prec) (Hpe : Prec_lt_emax prec emax)
         (scale shape : binary_float prec emax),
  agrees (Pareto_new prec emax scale shape) (spec_Pareto_new prec emax scale shape).
Proof. intros prec emax _ _. exact (GuardProofs.Pareto_new_sound prec emax). Qed.
Print Assumptions C04_Pareto_new_sound.

Theorem C04_Weibull_new_sound :
  forall (prec emax : Z) (Hp : Prec_gt_0 prec) (Hpe : Prec_lt_emax prec emax)
         (scale shape : binary_float prec emax),
  agrees (Weibull_new prec emax scale shape) (spec_Weibull_new prec emax scale shape).
Proof. intros prec emax _ _. exact (GuardProofs.Weibull_new_sound prec emax). Qed.
Print Assumptions C04_Weibull_new_sound.

Theorem C04_InverseGaussian_new_sound :
  forall (prec emax : Z) (Hp : Prec_gt_0 prec) (Hpe : Prec_lt_emax prec emax)
         (mean shape : binary_float prec emax),
  agrees (InverseGaussian_new prec emax mean shape) (spec_InverseGaussian_new prec emax mean shape).
Proof. intros prec emax _ _. exact (GuardProofs.InverseGaussian_new_sound prec emax). Qed.
Print Assumptions C04_InverseGaussian_new_sound.

Theorem C04_Gumbel_new_sound :
  forall (prec emax : Z) (Hp : Prec_gt_0 prec) (Hpe : Prec_lt_emax prec emax)
         (location scale : binary_float prec emax),
  agrees (Gumbel_new prec emax location scale) (spec_Gumbel_new prec emax location scale).
Proof. intros prec emax _ _. exact (GuardProofs.Gumbel_new_sound prec emax). Qed.
Print Assumptions C04_Gumbel_new_sound.

Theorem C04_Frechet_new_sound :
  forall (prec emax : Z) (Hp : Prec_gt_0 prec) (Hpe : Prec_lt_emax prec emax)
         (location scale shape : binary_float prec emax),
  agrees (Frechet_new prec emax location scale shape) (spec_Frechet_new prec emax location scale shape).
Proof. intros prec emax _ _. exact (GuardProofs.Frechet_new_sound prec emax). Qed.
Print Assumptions C04_Frechet_new_sound.

Theorem C04_SkewNormal_new_sound :
  forall (prec emax : Z) (Hp : Prec_gt_0 prec) (Hpe : Prec_lt_emax prec emax)
         (location scale shape : binary_float prec emax),
  agrees (SkewNormal_new prec emax location scale shape)
         (spec_SkewNormal_new prec emax location scale shape).
Proof. intros prec emax _ _. exact (GuardProofs.SkewNormal_new_sound prec emax). Qed.
Print Assumptions C04_SkewNormal_new_sound.

Theorem C04_Zeta_new_sound :
  forall (prec emax : Z) (Hp : Prec_gt_0 prec) (Hpe : Prec_lt_emax prec emax)
         (s : binary_float prec emax),
  agrees (Zeta_new prec emax Hp Hpe s) (spec_Zeta_new prec emax Hp Hpe s).
Proof. exact GuardProofs.Zeta_new_sound. Qed.
Print Assumptions C04_Zeta_new_sound.

(* validation part of Geometric::new (the squaring loop that follows is a termination question) *)
Theorem C04_Geometric_new_sound :
  forall (prec emax : Z) (Hp : Prec_gt_0 prec) (Hpe : Prec_lt_emax prec emax)
         (p : binary_float prec emax),
  agrees (Geometric_new prec emax Hp Hpe p) (spec_Geometric_new prec emax Hp Hpe p).
Proof. exact GuardProofs.Geometric_new_sound. Qed.
Print Assumptions C04_Geometric_new_sound.

(* one rounded operation with a constant feeds the decision *)
(* includes: `Gamma::new(0.5 * k, 2.0).unwrap()` never panics *)
Theorem C04_ChiSquared_new_sound64 :
  forall k : f64,
  agrees (ChiSquared_new 53 1024 Hp64 Hpe64 k) (spec_ChiSquared_new 53 1024 Hp64 Hpe64 k).
Proof. exact GuardProofs2.ChiSquared_new_sound64. Qed.
Print Assumptions C04_ChiSquared_new_sound64.
Theorem C04_ChiSquared_new_sound32 :
  forall k : f32,
  agrees (ChiSquared_new 24 128 Hp32 Hpe32 k) (spec_ChiSquared_new 24 128 Hp32 Hpe32 k).
Proof. exact GuardProofs2.ChiSquared_new_sound32. Qed.
Print Assumptions C04_ChiSquared_new_sound32.

Theorem C04_StudentT_new_sound64 :
  forall nu : f64,
  agrees (StudentT_new 53 1024 Hp64 Hpe64 nu) (spec_StudentT_new 53 1024 Hp64 Hpe64 nu).
Proof. exact GuardProofs2.StudentT_new_sound64. Qed.
Print Assumptions C04_StudentT_new_sound64.
Theorem C04_StudentT_new_sound32 :
  forall nu : f32,
  agrees (StudentT_new 24 128 Hp32 Hpe32 nu) (spec_StudentT_new 24 128 Hp32 Hpe32 nu).
Proof. exact GuardProofs2.StudentT_new_sound32. Qed.
Print Assumptions C04_StudentT_new_sound32.

Theorem C04_FisherF_new_sound64 :
  forall m n : f64,
  agrees (FisherF_new 53 1024 Hp64 Hpe64 m n) (spec_FisherF_new 53 1024 Hp64 Hpe64 m n).
Proof. exact GuardProofs2.FisherF_new_sound64. Qed.
Print Assumptions C04_FisherF_new_sound64.
Theorem C04_FisherF_new_sound32 :
  forall m n : f32,
  agrees (FisherF_new 24 128 Hp32 Hpe32 m n) (spec_FisherF_new 24 128 Hp32 Hpe32 m n).
Proof. exact GuardProofs2.FisherF_new_sound32. Qed.
Print Assumptions C04_FisherF_new_sound32.

(* ShapeTooLarge exactly when lambda > 1.844e19 as a real number, although the f32 code compares
   with fl32(1.844e19) < 1.844e19 *)
Theorem C04_Poisson_new_sound64 :
  forall lambda : f64,
  agrees (Poisson_new 53 1024 Hp64 Hpe64 lambda) (spec_Poisson_new 53 1024 lambda).
Proof. exact GuardProofs2.Poisson_new_sound64. Qed.
Print Assumptions C04_Poisson_new_sound64.
Theorem C04_Poisson_new_sound32 :
  forall lambda : f32,
  agrees (Poisson_new 24 128 Hp32 Hpe32 lambda) (spec_Poisson_new 24 128 lambda).
Proof. exact GuardProofs2.Poisson_new_sound32. Qed.
Print Assumptions C04_Poisson_new_sound32.

(* rounded arithmetic on the arguments feeds the decision *)
(* includes: `unreachable!()` is unreachable; inside the documented domain mu = 1/gamma > 0 *)
Theorem C04_NormalInverseGaussian_new_sound :
  forall (prec emax : Z) (Hp : Prec_gt_0 prec) (Hpe : Prec_lt_emax prec emax),
  3 <= prec ->
  forall alpha beta : binary_float prec emax,
  agrees (NormalInverseGaussian_new prec emax Hp Hpe alpha beta)
         (spec_NormalInverseGaussian_new prec emax alpha beta).
Proof. exact GuardProofs3.NormalInverseGaussian_new_sound. Qed.
Print Assumptions C04_NormalInverseGaussian_new_sound.
Theorem C04_NormalInverseGaussian_new_sound64 :
  forall alpha beta : f64,
  agrees (NormalInverseGaussian_new 53 1024 Hp64 Hpe64 alpha beta)
         (spec_NormalInverseGaussian_new 53 1024 alpha beta).
Proof. exact GuardProofs6.NormalInverseGaussian_new_sound64. Qed.
Print Assumptions C04_NormalInverseGaussian_new_sound64.
Theorem C04_NormalInverseGaussian_new_sound32 :
  forall alpha beta : f32,
  agrees (NormalInverseGaussian_new 24 128 Hp32 Hpe32 alpha beta)
         (spec_NormalInverseGaussian_new 24 128 alpha beta).
Proof. exact GuardProofs6.NormalInverseGaussian_new_sound32. Qed.
Print Assumptions C04_NormalInverseGaussian_new_sound32.

(* includes: with a finite range and shape, Beta::new(v, w) cannot fail inside the documented domain *)
Theorem C04_Pert_with_mode_sound :
  forall (prec emax : Z) (Hp : Prec_gt_0 prec) (Hpe : Prec_lt_emax prec emax)
         (min max shape mode : binary_float prec emax),
  agrees (Pert_with_mode prec emax Hp Hpe min max shape mode)
         (spec_Pert_with_mode prec emax Hp Hpe min max shape mode).
Proof. exact GuardProofs3.Pert_with_mode_sound. Qed.
Print Assumptions C04_Pert_with_mode_sound.

Theorem C04_Pert_with_mean_sound :
  forall (prec emax : Z) (Hp : Prec_gt_0 prec) (Hpe : Prec_lt_emax prec emax)
         (min max shape mean : binary_float prec emax),
  agrees (Pert_with_mean prec emax Hp Hpe min max shape mean)
         (spec_Pert_with_mean prec emax Hp Hpe min max shape mean).
Proof. exact GuardProofs3.Pert_with_mean_sound. Qed.
Print Assumptions C04_Pert_with_mean_sound.

(* every n : u64; the assertion inside f64_to_u64 cannot fail (Binomial exists for f64 only) *)
Theorem C04_Binomial_new_sound64 :
  forall (n : Z) (p : f64),
  0 <= n <= u64_max ->
  agrees (Binomial_new 53 1024 Hp64 Hpe64 n p) (spec_Binomial_new 53 1024 Hp64 Hpe64 n p).
Proof. exact GuardProofs6.Binomial_new_sound64. Qed.
Print Assumptions C04_Binomial_new_sound64.

(* any length; FailedToCreateGamma / FailedToCreateBeta are unreachable *)
Theorem C04_Dirichlet_new_sound :
  forall (prec emax : Z) (Hp : Prec_gt_0 prec) (Hpe : Prec_lt_emax prec emax)
         (alpha : list (binary_float prec emax)),
  agrees (Dirichlet_new prec emax Hp Hpe alpha) (spec_Dirichlet_new prec emax Hp Hpe alpha).
Proof. exact GuardProofs4.Dirichlet_new_sound. Qed.
Print Assumptions C04_Dirichlet_new_sound.

(* libm feeds the decision: stated under an explicit contract *)
(* Zipf::new: under the contract on powf and ln, `debug_assert!(t > 0)` cannot fail
   (debug = true) and the errors are the documented ones (both build modes). *)
Theorem C04_Zipf_new_sound :
  forall (prec emax : Z) (Hp : Prec_gt_0 prec) (Hpe : Prec_lt_emax prec emax),
  3 <= prec ->
  forall (powf_f : binary_float prec emax -> binary_float prec emax -> binary_float prec emax)
         (ln_f : binary_float prec emax -> binary_float prec emax),
  (forall x y : binary_float prec emax, ge1 prec emax x -> is_finite y = true -> (0 < B2R y)%R ->
     is_nan (powf_f x y) = false /\ (1 <= ext prec emax (powf_f x y))%R) ->
  (forall x y : binary_float prec emax, ge1 prec emax x -> is_finite y = true -> (B2R y < 0)%R ->
     is_nan (powf_f x y) = false /\ (0 <= ext prec emax (powf_f x y) <= 1)%R) ->
  (forall x : binary_float prec emax, is_finite x = true -> (1 <= B2R x)%R ->
     is_nan (ln_f x) = false /\ (0 <= ext prec emax (ln_f x))%R) ->
  forall (debug : bool) (n s : binary_float prec emax),
  agrees (Zipf_new_gen prec emax Hp Hpe debug powf_f ln_f n s) (spec_Zipf_new prec emax Hp Hpe n s).
Proof. exact GuardProofs7.Zipf_new_sound. Qed.
Print Assumptions C04_Zipf_new_sound.

(* LogNormal::from_mean_cv (with the fix of F1: mean tested inside the `cv == 0` branch):
   sound outside the decidable class LN_known (cv finite but 1 + cv*cv = +inf) ... *)
Theorem C04_LogNormal_from_mean_cv_sound_except :
  forall (prec emax : Z) (Hp : Prec_gt_0 prec) (Hpe : Prec_lt_emax prec emax)
         (ln_f : binary_float prec emax -> binary_float prec emax),
  (forall a : binary_float prec emax, is_finite a = true -> (1 <= B2R a)%R ->
     is_finite (ln_f a) = true /\ (0 <= B2R (ln_f a))%R) ->
  ln_f (pinf prec emax) = pinf prec emax ->
  forall mean cv : binary_float prec emax,
  LN_known prec emax Hp Hpe cv = false ->
  agrees (LogNormal_from_mean_cv prec emax Hp Hpe ln_f mean cv)
         (spec_LogNormal_from_mean_cv prec emax mean cv).
Proof. exact GuardProofs5.LogNormal_from_mean_cv_sound_except. Qed.
Print Assumptions C04_LogNormal_from_mean_cv_sound_except.

(* ... and REFUTED on it: mean = 1.0, cv = 1e200 (f64) / 1e20 (f32) *)
Theorem C04_LogNormal_from_mean_cv_refuted64 :
  forall ln_f : f64 -> f64, ln_f (pinf 53 1024) = pinf 53 1024 ->
  exists mean cv : f64,
    ~ agrees (LogNormal_from_mean_cv 53 1024 Hp64 Hpe64 ln_f mean cv)
             (spec_LogNormal_from_mean_cv 53 1024 mean cv).
Proof. exact GuardProofs5.LogNormal_from_mean_cv_refuted64. Qed.
Print Assumptions C04_LogNormal_from_mean_cv_refuted64.
Theorem C04_LogNormal_from_mean_cv_refuted32 :
  forall ln_f : f32 -> f32, ln_f (pinf 24 128) = pinf 24 128 ->
  exists mean cv : f32,
    ~ agrees (LogNormal_from_mean_cv 24 128 Hp32 Hpe32 ln_f mean cv)
             (spec_LogNormal_from_mean_cv 24 128 mean cv).
Proof. exact GuardProofs5.LogNormal_from_mean_cv_refuted32. Qed.
Print Assumptions C04_LogNormal_from_mean_cv_refuted32.

(* `Normal::new(mu, 0).unwrap()` never panics, for any libm *)
Theorem C04_LogNormal_from_mean_cv_no_panic :
  forall (prec emax : Z) (Hp : Prec_gt_0 prec) (Hpe : Prec_lt_emax prec emax)
         (ln_f : binary_float prec emax -> binary_float prec emax)
         (mean cv : binary_float prec emax),
  LogNormal_from_mean_cv prec emax Hp Hpe ln_f mean cv <> GPanic.
Proof. exact GuardProofs5.LogNormal_from_mean_cv_no_panic. Qed.
Print Assumptions C04_LogNormal_from_mean_cv_no_panic.

(* the code before the fix of F1 (no mean test when cv == 0) accepted (mean, cv) = (-1.0, 0.0) *)
Theorem C04_LogNormal_from_mean_cv_unfixed_refuted64 :
  forall ln_f : f64 -> f64,
  exists mean cv : f64,
    ~ agrees (LogNormal_from_mean_cv_gen 53 1024 Hp64 Hpe64 true ln_f mean cv)
             (spec_LogNormal_from_mean_cv 53 1024 mean cv).
Proof. exact GuardProofs5.LogNormal_from_mean_cv_unfixed_refuted64. Qed.
Print Assumptions C04_LogNormal_from_mean_cv_unfixed_refuted64.

(* Hypergeometric::new (with the fix of F2: m computed in floating point).  For all u64 triples:
   the documented errors are returned for K > N and n > N, and otherwise the constructor does not
   panic — in a release build always, in a debug build outside the decidable class hyper_known.
   `None` = the model refused to run more than `cap` iterations of the factorial loop.           *)
Theorem C04_Hypergeometric_new_sound_except :
  forall (prec emax : Z) (Hp : Prec_gt_0 prec) (Hpe : Prec_lt_emax prec emax)
         (debug : bool) (cap N K n : Z),
  is_u64 N -> is_u64 K -> is_u64 n ->
  (debug = true -> hyper_known N K n = false) ->
  match Hypergeometric_new_gen prec emax Hp Hpe debug cap N K n with
  | Some r => agrees r (spec_Hypergeometric_new N K n)
  | None => True
  end.
Proof. exact GuardProofs5.Hypergeometric_new_sound_except. Qed.
Print Assumptions C04_Hypergeometric_new_sound_except.

(* REFUTED inside hyper_known (debug build); GPanic agrees with nothing. *)
Theorem C04_Hypergeometric_new_refuted :
  exists N K n r, is_u64 N /\ is_u64 K /\ is_u64 n /\
    Hypergeometric_new_gen 53 1024 Hp64 Hpe64 true hyper_cap N K n = Some r /\
    ~ agrees r (spec_Hypergeometric_new N K n).
Proof. exact GuardProofs6.Hypergeometric_new_refuted. Qed.
Print Assumptions C04_Hypergeometric_new_refuted.
(* the two witnesses: new(MAX, MAX, MAX) overflows `min_all + 1` (u64);
   new(MAX, MAX - 1, 2^63) overflows `offset_x += n1 as i64 * sign_x` (i64) *)
Theorem C04_Hypergeometric_new_witness_min_all :
  hyper_known2 18446744073709551615 18446744073709551615 18446744073709551615 = true /\
  Hypergeometric_new_gen 53 1024 Hp64 Hpe64 true hyper_cap
    18446744073709551615 18446744073709551615 18446744073709551615 = Some GPanic.
Proof. exact GuardProofs6.Hypergeometric_new_witness_min_all. Qed.
Print Assumptions C04_Hypergeometric_new_witness_min_all.
Theorem C04_Hypergeometric_new_witness_offset :
  hyper_known1 18446744073709551615 (18446744073709551615 - 1) 9223372036854775808 = true /\
  Hypergeometric_new_gen 53 1024 Hp64 Hpe64 true hyper_cap
    18446744073709551615 (18446744073709551615 - 1) 9223372036854775808 = Some GPanic.
Proof. exact GuardProofs6.Hypergeometric_new_witness_offset. Qed.
Print Assumptions C04_Hypergeometric_new_witness_offset.
(* every valid triple of the class known1 panics in a debug build *)
Theorem C04_Hypergeometric_new_known1_panics :
  forall (prec emax : Z) (Hp : Prec_gt_0 prec) (Hpe : Prec_lt_emax prec emax) (cap N K n : Z),
  is_u64 N -> is_u64 K -> is_u64 n -> hyper_known1 N K n = true ->
  Hypergeometric_new_gen prec emax Hp Hpe true cap N K n = Some GPanic.
Proof. exact GuardProofs6.Hypergeometric_new_known1_panics. Qed.
Print Assumptions C04_Hypergeometric_new_known1_panics.
Theorem C04_GPanic_never_agrees : forall e : expect, ~ agrees GPanic e.
Proof. exact GuardProofs6.GPanic_never_agrees. Qed.
Print Assumptions C04_GPanic_never_agrees.
