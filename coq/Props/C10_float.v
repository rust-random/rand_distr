(* Props/C10_float.v — WeightedTreeIndex with FLOAT weights (f32, f64).

   For integer weights C10 (Props/C10.v) proves that try_sample never trips its two internal
   assertions and samples exactly proportionally.  For float weights the crate documents
   "it is guaranteed that this method will not panic if a call to is_valid returns true".
   That guarantee is FALSE: C10_float_assert_refuted exhibits, by computation in the executable
   model Model/FloatWeights.v (validated case-by-case against the real code, see the header of
   that file), a tree built by `new` with is_valid() = true on
   which try_sample panics (`assert!(target_weight < self.get(index))`), defect F7.

   What does hold for ALL float weight lists is stated after the refutation:
   error characterisation of new/push/update, lengths, and atomicity of failing operations.    *)
From Coq Require Import ZArith List Bool Lia.
From Flocq Require Import Core.Core IEEE754.Binary IEEE754.Bits IEEE754.BinarySingleNaN.
From RD Require Import Model.Tree Model.Uniform Model.FloatWeights Proofs.FloatWeightsProofs.
From RD Require Proofs.FloatWeightsDescend.
Import ListNotations.
Open Scope Z_scope.

(* the F7 witness: three f32 weights (0.642052, 0.19634718, 0.4312635) *)
Definition F7_bits : list Z := [0x3f245d85; 0x3e490f3c; 0x3edcce92].
Definition F7_ws : list fl32 := map fdec32 F7_bits.
Definition F7_word : Z := 0xffffffffffffffff.            (* first RNG word *)
(* the state built by `new` (Ok-projection; that `new` returns Ok is part of the theorem) *)
Definition F7_tree : list fl32 :=
  match ftree_new 24 128 FHp32 FHpe32 F7_ws with Ok t => t | _ => [] end.
(* the target drawn by rng.random_range(0.0..total) from F7_word *)
Definition F7_target : fl32 :=
  match ftree_target_of_word 24 128 FHp32 FHpe32 F7_tree F7_word with Some x => x | None => B754_nan end.

(* the model reproduces the observable state of the real code on the witness
   (harness: `tree f32 0 N:x3f245d85,x3e490f3c,x3edcce92 S:ffffffffffffffff` prints
    subtotals [x3fa2844e,x3e490f3c,x3edcce92], gets [x3f245d83,x3e490f3c,x3edcce92], then `panic`) *)
Example C10_float_witness_state :
  ftree_new 24 128 FHp32 FHpe32 F7_ws = Ok F7_tree /\
  map fenc32 F7_tree = [0x3fa2844e; 0x3e490f3c; 0x3edcce92] /\
  map (fun i => fenc32 (ftree_get 24 128 FHp32 FHpe32 F7_tree i)) [0;1;2]%nat
    = [0x3f245d83; 0x3e490f3c; 0x3edcce92] /\
  (* get(0) is 2 ulp BELOW the weight that was passed in *)
  nth 0 F7_bits 0 - fenc32 (ftree_get 24 128 FHp32 FHpe32 F7_tree 0) = 2 /\
  ftree_target_of_word 24 128 FHp32 FHpe32 F7_tree F7_word = Some F7_target /\
  (* the target is total - 1ulp; after subtracting both child subtotals the residual equals get(0) *)
  fenc32 F7_target = 0x3fa2844d /\
  option_map (fun p => (fst p, fenc32 (snd p))) (fdescend 24 128 FHp32 FHpe32 4 F7_tree 0 F7_target)
    = Some (0%nat, 0x3f245d83).
Proof. repeat split; vm_compute; reflexivity. Qed.

(* F7: is_valid() = true and yet try_sample panics *)
Theorem C10_float_assert_refuted :
  exists (ws : list fl32) (w : Z) (t : list fl32) (target : fl32),
    0 <= w < 2^64 /\
    ftree_new 24 128 FHp32 FHpe32 ws = Ok t /\
    ftree_is_valid 24 128 t = true /\
    ftree_target_of_word 24 128 FHp32 FHpe32 t w = Some target /\
    ftree_try_sample 24 128 FHp32 FHpe32 t target = Panic /\
    ftree_try_sample_word 24 128 FHp32 FHpe32 t w = (Panic, 1).
Proof.
  exists F7_ws, F7_word, F7_tree, F7_target.
  split; [vm_compute; split; [discriminate | reflexivity] |].
  repeat split; vm_compute; reflexivity.
Qed.

(* consequently the crate's documented guarantee, read as a statement about the model, is false *)
Corollary C10_float_is_valid_does_not_prevent_panic :
  ~ (forall (t : list fl32) (w : Z), 0 <= w < 2^64 -> ftree_is_valid 24 128 t = true ->
       fst (ftree_try_sample_word 24 128 FHp32 FHpe32 t w) <> Panic).
Proof.
  intros H. destruct C10_float_assert_refuted as [ws [w [t [target [Hw [_ [V [_ [_ E]]]]]]]]].
  apply (H t w Hw V). rewrite E. reflexivity.
Qed.

(* the defect is not specific to f32: an f64 witness (0.469..., 0.246..., 0.543...), compared with
   the harness output of `tree f64 0 N:x3fde053a2ef29388,x3fcf8fb2d617959c,x3fe1667d2c686bfa
   S:ffffffffffffffff` (record = outcome, len, is_empty, is_valid, subtotals, gets) *)
Example C10_float_assert_refuted_f64 :
  tio_run64 [TNew [0x3fde053a2ef29388; 0x3fcf8fb2d617959c; 0x3fe1667d2c686bfa];
             TSample 0xffffffffffffffff] =
  [(POk,    (3, false, true, [0x3ff426837cb3cd92; 0x3fcf8fb2d617959c; 0x3fe1667d2c686bfa],
                             [0x3fde053a2ef29384; 0x3fcf8fb2d617959c; 0x3fe1667d2c686bfa]));
   (PPanic, (3, false, true, [0x3ff426837cb3cd92; 0x3fcf8fb2d617959c; 0x3fe1667d2c686bfa],
                             [0x3fde053a2ef29384; 0x3fcf8fb2d617959c; 0x3fe1667d2c686bfa]))].
Proof. vm_compute. reflexivity. Qed.

(* what holds for all float weights, both formats *)
Section Fmt.
Variable prec emax : Z.
Context (Hp : Prec_gt_0 prec) (Hpe : Prec_lt_emax prec emax).
Notation float := (BinarySingleNaN.binary_float prec emax).

(* `new`: InvalidWeight iff some weight is NaN or strictly negative (-inf or negative non-zero;
   -0.0 and +inf are accepted); otherwise Ok; never Overflow (float addition saturates to inf
   silently) and never a panic *)
Theorem C10_float_new_errors : forall ws : list float,
  (ftree_new prec emax Hp Hpe ws = Err InvalidWeight <->
     exists w, In w ws /\ (is_nan w = true \/ fneg_strict prec emax w = true)) /\
  ((forall w, In w ws -> is_nan w = false /\ fneg_strict prec emax w = false) ->
     exists t, ftree_new prec emax Hp Hpe ws = Ok t /\ length t = length ws) /\
  ftree_new prec emax Hp Hpe ws <> Err Overflow /\
  ftree_new prec emax Hp Hpe ws <> Err InsufficientNonZero /\
  ftree_new prec emax Hp Hpe ws <> Err InvalidInput /\
  ftree_new prec emax Hp Hpe ws <> Panic.
Proof. exact (tree_float_new_errors prec emax Hp Hpe). Qed.

(* len / is_empty behave as for the plain weight list *)
Theorem C10_float_len :
  (forall ws t, ftree_new prec emax Hp Hpe ws = Ok t -> length t = length ws) /\
  (forall t w t', ftree_push prec emax Hp Hpe t w = Ok t' -> length t' = S (length t)) /\
  (forall t, length (fst (ftree_pop prec emax Hp Hpe t)) = Nat.pred (length t)) /\
  (forall t, snd (ftree_pop prec emax Hp Hpe t) = None <-> t = []) /\
  (forall t i w t', ftree_update prec emax Hp Hpe t i w = Ok t' -> length t' = length t) /\
  (forall t : list float, ftree_is_empty prec emax t = true <-> length t = 0%nat) /\
  (forall t : list float, ftree_len prec emax t = Z.of_nat (length t)).
Proof. exact (tree_float_len prec emax Hp Hpe). Qed.

(* push then pop returns the pushed value (the remaining STATE may differ by rounding) *)
Theorem C10_float_push_pop_value : forall t w t',
  ftree_push prec emax Hp Hpe t w = Ok t' -> snd (ftree_pop prec emax Hp Hpe t') = Some w.
Proof. exact (tree_float_push_pop_value prec emax Hp Hpe). Qed.

(* an operation returning an error leaves the state unchanged, and the error is InvalidWeight *)
Theorem C10_float_error_atomic : forall t o e,
  snd (fstep prec emax Hp Hpe t o) = FErr e ->
  fst (fstep prec emax Hp Hpe t o) = t /\ e = InvalidWeight.
Proof. exact (tree_float_error_atomic prec emax Hp Hpe). Qed.

(* exact result classification of push / update *)
Theorem C10_float_push_result : forall t w,
  (fbad_w prec emax w = true -> ftree_push prec emax Hp Hpe t w = Err InvalidWeight) /\
  (fbad_w prec emax w = false -> exists t', ftree_push prec emax Hp Hpe t w = Ok t').
Proof. exact (tree_float_push_result prec emax Hp Hpe). Qed.

Theorem C10_float_update_result : forall t i w,
  (fbad_w prec emax w = true -> ftree_update prec emax Hp Hpe t i w = Err InvalidWeight) /\
  (fbad_w prec emax w = false -> (length t <= i)%nat -> ftree_update prec emax Hp Hpe t i w = Panic) /\
  (fbad_w prec emax w = false -> (i < length t)%nat -> exists t', ftree_update prec emax Hp Hpe t i w = Ok t').
Proof. exact (tree_float_update_result prec emax Hp Hpe). Qed.

(* try_sample: Err(InsufficientNonZero) iff total == 0.0; with is_valid() it never returns Err
   (but may panic, see above) *)
Theorem C10_float_zero_total : forall (t : list float) target,
  feq prec emax (ftree_total prec emax t) (fzero prec emax) = true ->
  ftree_try_sample prec emax Hp Hpe t target = Err InsufficientNonZero.
Proof. exact (tree_float_sample_zero prec emax Hp Hpe). Qed.

Theorem C10_float_valid_not_err : forall (t : list float) target e,
  ftree_is_valid prec emax t = true -> ftree_try_sample prec emax Hp Hpe t target <> Err e.
Proof. exact (tree_float_valid_not_err prec emax Hp Hpe). Qed.
(* The descent loop itself is sound for floats: on a non-empty state and a target that is not
   strictly negative (nn: NaN, +-0, +inf or positive) it never runs out of fuel, never leaves the
   vector, and its residual is not strictly negative.  So the model's Panic on try_sample is
   exactly a failing `assert!`: the first assert can fail only through a NaN residual (inf - inf),
   the second one whenever rounding makes `resid < get(index)` false — as in F7.               *)
Theorem C10_float_panic_iff : forall (t : list float) target, t <> [] ->
  FloatWeightsDescend.nn prec emax target ->
  exists i resid,
    fdescend prec emax Hp Hpe (S (length t)) t 0 target = Some (i, resid) /\ (i < length t)%nat /\
    FloatWeightsDescend.nn prec emax resid /\
    (ftree_sample_target prec emax Hp Hpe t target = Ok i <->
       (is_nan resid = false /\ flt prec emax resid (ftree_get prec emax Hp Hpe t i) = true)) /\
    (ftree_sample_target prec emax Hp Hpe t target = Panic <->
       (is_nan resid = true \/ flt prec emax resid (ftree_get prec emax Hp Hpe t i) = false)) /\
    (forall e, ftree_sample_target prec emax Hp Hpe t target <> Err e).
Proof. exact (FloatWeightsDescend.tree_float_panic_iff prec emax Hp Hpe). Qed.

(* every target drawn by random_range(0.0..total) from a 64-bit word is not strictly negative *)
Theorem C10_float_target_nn : forall (total : float) w target, 0 <= w ->
  random_range prec emax Hp Hpe (fzero prec emax) total w = Some target ->
  FloatWeightsDescend.nn prec emax target.
Proof. exact (FloatWeightsDescend.random_range_target_nn prec emax Hp Hpe). Qed.

(* complete outcome analysis of try_sample from an RNG word on a state with is_valid() = true:
   never an Err; either the total is +inf (random_range panics on the non-finite bound), or one
   word is consumed, the loop stops at an in-range index i, and the result is Ok i or — when an
   assertion fails — Panic *)
Theorem C10_float_sample_word_valid : forall (t : list float) w, 0 <= w ->
  ftree_is_valid prec emax t = true ->
  (is_finite (ftree_total prec emax t) = false /\
     ftree_try_sample_word prec emax Hp Hpe t w = (Panic, 0)) \/
  (exists target i resid,
     ftree_target_of_word prec emax Hp Hpe t w = Some target /\
     fdescend prec emax Hp Hpe (S (length t)) t 0 target = Some (i, resid) /\ (i < length t)%nat /\
     ((is_nan resid = false /\ flt prec emax resid (ftree_get prec emax Hp Hpe t i) = true /\
         ftree_try_sample_word prec emax Hp Hpe t w = (Ok i, 1)) \/
      ((is_nan resid = true \/ flt prec emax resid (ftree_get prec emax Hp Hpe t i) = false) /\
         ftree_try_sample_word prec emax Hp Hpe t w = (Panic, 1)))).
Proof. exact (FloatWeightsDescend.tree_float_sample_word_valid prec emax Hp Hpe). Qed.
End Fmt.

Print Assumptions C10_float_witness_state.
Print Assumptions C10_float_assert_refuted.
Print Assumptions C10_float_is_valid_does_not_prevent_panic.
Print Assumptions C10_float_assert_refuted_f64.
Print Assumptions C10_float_new_errors.
Print Assumptions C10_float_len.
Print Assumptions C10_float_push_pop_value.
Print Assumptions C10_float_error_atomic.
Print Assumptions C10_float_push_result.
Print Assumptions C10_float_update_result.
Print Assumptions C10_float_zero_total.
Print Assumptions C10_float_valid_not_err.
Print Assumptions C10_float_panic_iff.
Print Assumptions C10_float_target_nn.
Print Assumptions C10_float_sample_word_valid.
