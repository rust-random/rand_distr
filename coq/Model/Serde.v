(* C15 model: serde derive(Serialize, Deserialize) conventions for a
   self-describing format (JSON-like, externally tagged enums), over a
   universe of type descriptions that a generator emits from the Rust source. *)
From Coq Require Import String ZArith List Bool.
Inductive tydesc :=
| TFloat (bits : Z)                 (* f32 / f64: bits = 32 | 64 *)
| TInt (signed : bool) (bits : Z)   (* u8..u128, usize (64), i8..i128 *)
| TBool
| TUnitStruct (name : string)
| TStruct (name : string) (fields : list (string * tydesc))
| TNewtype (name : string) (t : tydesc)                 (* struct Poisson<F>(Method<F>) : transparent *)
| TTupleStruct (name : string) (ts : list tydesc)
| TEnum (name : string) (variants : list (string * vshape))
| TSeq (t : tydesc)                                      (* Vec<T>, Box<[T]> *)
with vshape :=
| VUnit | VNewtype (t : tydesc) | VTuple (ts : list tydesc) | VStruct (fields : list (string * tydesc)).

Import ListNotations.
Open Scope Z_scope.

(* Universal value tree.
   - VFloat w p      : a float of width w (32|64) with IEEE bit pattern p
   - VIntv n         : any integer type, mathematical value n
   - VUnitv          : unit struct, and payload of a unit variant
   - VRecord fs      : named struct / struct-variant payload, fields in
                       DECLARATION order, carrying their names
   - VTup vs         : tuple struct / tuple-variant payload
   - VVariant n p    : enum value, variant name n, payload p
                       (VUnitv | inner value | VTup | VRecord)
   - VList vs        : Vec / boxed slice
   A newtype struct is transparent: its value is the inner value. *)
Inductive value :=
| VFloat (width : Z) (pattern : Z)
| VIntv (n : Z)
| VBoolv (b : bool)
| VUnitv
| VRecord (fields : list (string * value))
| VTup (vs : list value)
| VVariant (name : string) (payload : value)
| VList (vs : list value).

(* Self-describing document. Numbers are exact: an integer, or a finite
   float identified by its bit pattern. *)
Inductive doc :=
| DNull
| DBool (b : bool)
| DInt (n : Z)
| DFloat (pattern : Z)
| DStr (s : string)
| DArr (items : list doc)
| DMap (entries : list (string * doc)).

(* List combinators: the mapped function is a parameter OUTSIDE the fix,
   so nested structural recursion through them is accepted *)
Section Combinators.
  Context {A B C : Type}.

  Definition zipw (f : A -> B -> C) : list A -> list B -> list C :=
    fix go (l : list A) (l' : list B) : list C :=
      match l, l' with
      | a :: r, b :: r' => f a b :: go r r'
      | _, _ => []
      end.

  Definition all2 (p : A -> B -> bool) : list A -> list B -> bool :=
    fix go (l : list A) (l' : list B) : bool :=
      match l, l' with
      | [], [] => true
      | a :: r, b :: r' => p a b && go r r'
      | _, _ => false
      end.

  Definition opt_zip (f : A -> B -> option C) : list A -> list B -> option (list C) :=
    fix go (l : list A) (l' : list B) : option (list C) :=
      match l, l' with
      | [], [] => Some []
      | a :: r, b :: r' =>
          match f a b with
          | Some c => match go r r' with Some cs => Some (c :: cs) | None => None end
          | None => None
          end
      | _, _ => None
      end.

  Definition opt_map (f : A -> option C) : list A -> option (list C) :=
    fix go (l : list A) : option (list C) :=
      match l with
      | [] => Some []
      | a :: r =>
          match f a with
          | Some c => match go r with Some cs => Some (c :: cs) | None => None end
          | None => None
          end
      end.

  (* first variant called [name]; continuation style so that the shape
     handed to [k] is visibly a subterm of the list *)
  Definition with_variant (name : string) (k : A -> C) (dflt : C)
    : list (string * A) -> C :=
    fix go (l : list (string * A)) : C :=
      match l with
      | [] => dflt
      | nv :: r => if String.eqb name (fst nv) then k (snd nv) else go r
      end.
End Combinators.

Fixpoint mem_str (s : string) (l : list string) : bool :=
  match l with
  | [] => false
  | x :: r => String.eqb s x || mem_str s r
  end.

Fixpoint nodupb (l : list string) : bool :=
  match l with
  | [] => true
  | x :: r => negb (mem_str x r) && nodupb r
  end.

(* entries of a map whose key is [k] *)
Definition entries_for {X : Type} (k : string) (m : list (string * X)) : list (string * X) :=
  filter (fun kv => String.eqb k (fst kv)) m.

Definition float_width (w : Z) : bool := (w =? 32) || (w =? 64).

Definition pattern_in_range (w p : Z) : bool := (0 <=? p) && (p <? 2 ^ w).

(* exponent field not all ones *)
Definition finite_pattern (w p : Z) : bool :=
  if w =? 32 then negb ((p / 2 ^ 23) mod 2 ^ 8 =? 255)
  else if w =? 64 then negb ((p / 2 ^ 52) mod 2 ^ 11 =? 2047)
  else false.

Definition int_in_range (signed : bool) (bits n : Z) : bool :=
  if signed then (- 2 ^ (bits - 1) <=? n) && (n <? 2 ^ (bits - 1))
  else (0 <=? n) && (n <? 2 ^ bits).

Fixpoint wf (d : tydesc) : bool :=
  match d with
  | TFloat _ | TInt _ _ | TBool | TUnitStruct _ => true
  | TStruct _ fs => nodupb (map fst fs) && forallb (fun ft => wf (snd ft)) fs
  | TNewtype _ t => wf t
  | TTupleStruct _ ts => forallb wf ts
  | TEnum _ vars => nodupb (map fst vars) && forallb (fun nv => wf_shape (snd nv)) vars
  | TSeq t => wf t
  end
with wf_shape (s : vshape) : bool :=
  match s with
  | VUnit => true
  | VNewtype t => wf t
  | VTuple ts => forallb wf ts
  | VStruct fs => nodupb (map fst fs) && forallb (fun ft => wf (snd ft)) fs
  end.

Fixpoint has_typeb (d : tydesc) (v : value) {struct d} : bool :=
  match d with
  | TFloat w =>
      match v with
      | VFloat w' p => (w =? w') && float_width w && pattern_in_range w p
      | _ => false
      end
  | TInt s b => match v with VIntv n => int_in_range s b n | _ => false end
  | TBool => match v with VBoolv _ => true | _ => false end
  | TUnitStruct _ => match v with VUnitv => true | _ => false end
  | TStruct _ fs =>
      match v with
      | VRecord vs =>
          all2 (fun ft fv => String.eqb (fst ft) (fst fv) && has_typeb (snd ft) (snd fv)) fs vs
      | _ => false
      end
  | TNewtype _ t => has_typeb t v
  | TTupleStruct _ ts => match v with VTup vs => all2 has_typeb ts vs | _ => false end
  | TEnum _ vars =>
      match v with
      | VVariant name p => with_variant name (fun sh => shape_typeb sh p) false vars
      | _ => false
      end
  | TSeq t => match v with VList vs => forallb (has_typeb t) vs | _ => false end
  end
with shape_typeb (s : vshape) (p : value) {struct s} : bool :=
  match s with
  | VUnit => match p with VUnitv => true | _ => false end
  | VNewtype t => has_typeb t p
  | VTuple ts => match p with VTup vs => all2 has_typeb ts vs | _ => false end
  | VStruct fs =>
      match p with
      | VRecord vs =>
          all2 (fun ft fv => String.eqb (fst ft) (fst fv) && has_typeb (snd ft) (snd fv)) fs vs
      | _ => false
      end
  end.

Definition has_type (d : tydesc) (v : value) : Prop := has_typeb d v = true.

(* every float inside the value is finite (exponent field not all ones) *)
Fixpoint finite_floatsb (v : value) : bool :=
  match v with
  | VFloat w p => finite_pattern w p
  | VIntv _ | VBoolv _ | VUnitv => true
  | VRecord fs => forallb (fun fv => finite_floatsb (snd fv)) fs
  | VTup vs => forallb finite_floatsb vs
  | VVariant _ p => finite_floatsb p
  | VList vs => forallb finite_floatsb vs
  end.

Definition finite_floats (v : value) : Prop := finite_floatsb v = true.

Fixpoint encode (d : tydesc) (v : value) {struct d} : doc :=
  match d with
  | TFloat w =>
      match v with
      | VFloat _ p => if finite_pattern w p then DFloat p else DNull
      | _ => DNull
      end
  | TInt _ _ => match v with VIntv n => DInt n | _ => DNull end
  | TBool => match v with VBoolv b => DBool b | _ => DNull end
  | TUnitStruct _ => DNull
  | TStruct _ fs =>
      match v with
      | VRecord vs => DMap (zipw (fun ft fv => (fst ft, encode (snd ft) (snd fv))) fs vs)
      | _ => DNull
      end
  | TNewtype _ t => encode t v
  | TTupleStruct _ ts => match v with VTup vs => DArr (zipw encode ts vs) | _ => DNull end
  | TEnum _ vars =>
      match v with
      | VVariant name p =>
          with_variant name
            (fun sh => match sh with
                       | VUnit => DStr name
                       | _ => DMap [(name, encode_shape sh p)]
                       end) DNull vars
      | _ => DNull
      end
  | TSeq t => match v with VList vs => DArr (map (encode t) vs) | _ => DNull end
  end
with encode_shape (s : vshape) (p : value) {struct s} : doc :=
  match s with
  | VUnit => DNull
  | VNewtype t => encode t p
  | VTuple ts => match p with VTup vs => DArr (zipw encode ts vs) | _ => DNull end
  | VStruct fs =>
      match p with
      | VRecord vs => DMap (zipw (fun ft fv => (fst ft, encode (snd ft) (snd fv))) fs vs)
      | _ => DNull
      end
  end.

(* one field: exactly one entry with that key (missing -> None, duplicate -> None) *)
Definition dec_field (dec : doc -> option value) (k : string) (m : list (string * doc))
  : option (string * value) :=
  match entries_for k m with
  | [kv] => match dec (snd kv) with Some v => Some (k, v) | None => None end
  | _ => None
  end.

Fixpoint decode (d : tydesc) (x : doc) {struct d} : option value :=
  match d with
  | TFloat w =>
      match x with
      | DFloat p =>
          if float_width w && pattern_in_range w p && finite_pattern w p
          then Some (VFloat w p) else None
      | _ => None
      end
  | TInt s b =>
      match x with
      | DInt n => if int_in_range s b n then Some (VIntv n) else None
      | _ => None
      end
  | TBool => match x with DBool b => Some (VBoolv b) | _ => None end
  | TUnitStruct _ => match x with DNull => Some VUnitv | _ => None end
  | TStruct _ fs =>
      match x with
      | DMap m =>
          match opt_map (fun ft => dec_field (decode (snd ft)) (fst ft) m) fs with
          | Some vs => Some (VRecord vs)
          | None => None
          end
      | _ => None
      end
  | TNewtype _ t => decode t x
  | TTupleStruct _ ts =>
      match x with
      | DArr xs => match opt_zip decode ts xs with Some vs => Some (VTup vs) | None => None end
      | _ => None
      end
  | TEnum _ vars =>
      match x with
      | DStr s =>
          with_variant s
            (fun sh => match sh with VUnit => Some (VVariant s VUnitv) | _ => None end)
            None vars
      | DMap [(s, y)] =>
          with_variant s
            (fun sh => match decode_shape sh y with
                       | Some p => Some (VVariant s p)
                       | None => None
                       end) None vars
      | _ => None
      end
  | TSeq t =>
      match x with
      | DArr xs => match opt_map (decode t) xs with Some vs => Some (VList vs) | None => None end
      | _ => None
      end
  end
with decode_shape (s : vshape) (y : doc) {struct s} : option value :=
  match s with
  | VUnit => match y with DNull => Some VUnitv | _ => None end
  | VNewtype t => decode t y
  | VTuple ts =>
      match y with
      | DArr ys => match opt_zip decode ts ys with Some vs => Some (VTup vs) | None => None end
      | _ => None
      end
  | VStruct fs =>
      match y with
      | DMap m =>
          match opt_map (fun ft => dec_field (decode (snd ft)) (fst ft) m) fs with
          | Some vs => Some (VRecord vs)
          | None => None
          end
      | _ => None
      end
  end.

(* [Forall] from a proof at every element; like the list combinators above, [h] is a
   parameter outside the fix, so the nested recursive calls below are accepted *)
Definition Forall_all {A : Type} (R : A -> Prop) (h : forall a, R a) : forall l, Forall R l :=
  fix go (l : list A) : Forall R l :=
    match l with
    | [] => Forall_nil R
    | a :: r => Forall_cons a (h a) (go r)
    end.

Section TydescInd.
  Variables (P : tydesc -> Prop) (Q : vshape -> Prop).
  Hypothesis HFloat : forall w, P (TFloat w).
  Hypothesis HInt : forall s b, P (TInt s b).
  Hypothesis HBool : P TBool.
  Hypothesis HUnitS : forall n, P (TUnitStruct n).
  Hypothesis HStruct : forall n fs, Forall (fun ft => P (snd ft)) fs -> P (TStruct n fs).
  Hypothesis HNewtype : forall n t, P t -> P (TNewtype n t).
  Hypothesis HTupleS : forall n ts, Forall P ts -> P (TTupleStruct n ts).
  Hypothesis HEnum : forall n vars, Forall (fun nv => Q (snd nv)) vars -> P (TEnum n vars).
  Hypothesis HSeq : forall t, P t -> P (TSeq t).
  Hypothesis HVUnit : Q VUnit.
  Hypothesis HVNewtype : forall t, P t -> Q (VNewtype t).
  Hypothesis HVTuple : forall ts, Forall P ts -> Q (VTuple ts).
  Hypothesis HVStruct : forall fs, Forall (fun ft => P (snd ft)) fs -> Q (VStruct fs).

  Fixpoint tydesc_ind' (d : tydesc) : P d :=
    match d with
    | TFloat w => HFloat w
    | TInt s b => HInt s b
    | TBool => HBool
    | TUnitStruct n => HUnitS n
    | TStruct n fs => HStruct n fs (Forall_all _ (fun ft => tydesc_ind' (snd ft)) fs)
    | TNewtype n t => HNewtype n t (tydesc_ind' t)
    | TTupleStruct n ts => HTupleS n ts (Forall_all P tydesc_ind' ts)
    | TEnum n vars => HEnum n vars (Forall_all _ (fun nv => vshape_ind' (snd nv)) vars)
    | TSeq t => HSeq t (tydesc_ind' t)
    end
  with vshape_ind' (s : vshape) : Q s :=
    match s with
    | VUnit => HVUnit
    | VNewtype t => HVNewtype t (tydesc_ind' t)
    | VTuple ts => HVTuple ts (Forall_all P tydesc_ind' ts)
    | VStruct fs => HVStruct fs (Forall_all _ (fun ft => tydesc_ind' (snd ft)) fs)
    end.

  Lemma tydesc_mutind' : (forall d, P d) /\ (forall s, Q s).
  Proof. split; [exact tydesc_ind' | exact vshape_ind']. Qed.
End TydescInd.
